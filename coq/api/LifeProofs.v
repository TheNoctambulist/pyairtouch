(* LifeProofs.v — shutdown() and a later init() on the generic client core (Core.v), for any record
   types: shutdown empties the model; whatever happens afterwards does not depend on what the client
   held before, except for the remembered console version and the AirTouch-level subscriber set
   (which only decide AirTouch-level notifications).  C15, API half. *)
From Coq Require Import ZArith List.
From PV Require Import api.Core api.CoreProofs.
Import ListNotations.
Open Scope N_scope.

Section P.
  Variables ZS AS AB TD : Type.
  Variable zs_id : ZS -> N.
  Variable as_id : AS -> N.
  Variable ab_id : AB -> N.
  Variable td_id : TD -> N.
  Variable zs_eqb : ZS -> ZS -> bool.
  Variable as_eqb : AS -> AS -> bool.
  Variable td_eqb : TD -> TD -> bool.
  Variable as_has_error : AS -> bool.
  Variable zs_init : N -> ZS.
  Variable as_init : N -> AS.
  Variable td_init : N -> TD.
  Variable assign : list AB -> list N -> AB -> option (list N).

  Notation client := (client ZS AS AB TD).
  Notation on_event := (on_event ZS AS AB TD zs_id as_id ab_id td_id zs_eqb as_eqb td_eqb as_has_error zs_init as_init td_init assign).
  Notation run_events := (run_events ZS AS AB TD zs_id as_id ab_id td_id zs_eqb as_eqb td_eqb as_has_error zs_init as_init td_init assign).
  Notation proc_ac_status := (proc_ac_status ZS AS AB TD as_id as_eqb as_has_error).
  Notation proc_zone_status := (proc_zone_status ZS AS AB TD zs_id zs_eqb).
  Notation proc_timer := (proc_timer ZS AS AB TD td_id td_eqb).
  Notation with_acs := (with_acs ZS AS AB TD).
  Notation on_shutdown := (on_shutdown ZS AS AB TD).
  Notation on_init := (on_init ZS AS AB TD).
  Notation on_connected := (on_connected ZS AS AB TD).
  Notation empty := (empty ZS AS AB TD).

  (* the part of a client that is rebuilt by a handshake: everything but the remembered console
     version and the AirTouch-level subscribers *)
  Definition strip (c : client) : client :=
    mkClient _ _ _ _ (c_state _ _ _ _ c) (false, []) (c_zones _ _ _ _ c) (c_acs _ _ _ _ c)
             (c_initialised _ _ _ _ c) [] (c_hb_started _ _ _ _ c) (c_uses_poll _ _ _ _ c).

  (* outputs other than AirTouch-level notifications *)
  Definition model_out (o : out) : bool := match o with ONotifyAirTouch _ => false | _ => true end.
  Definition model_outs (l : list out) : list out := filter model_out l.

  Lemma model_outs_app a b : model_outs (a ++ b) = model_outs a ++ model_outs b.
  Proof. apply filter_app. Qed.

  Lemma model_outs_notify l : model_outs (map ONotifyAirTouch l) = [].
  Proof. induction l as [|x l IH]; [reflexivity|exact IH]. Qed.

  (* [strip] changes nothing the record loops read or overwrite *)
  Lemma proc_ac_status_strip c l :
    proc_ac_status (strip c) l = (strip (fst (proc_ac_status c l)), snd (proc_ac_status c l)).
  Proof.
    exact (each_comm _ _ _ _ (c_acs _ _ _ _) with_acs (a_id _ _ _) as_id (fun _ => update_ac_status _ _ _ as_eqb as_has_error)
             strip (fun _ => eq_refl) (fun _ _ => eq_refl) (fun _ => eq_refl) l c).
  Qed.

  Lemma proc_timer_strip c l : proc_timer (strip c) l = (strip (fst (proc_timer c l)), snd (proc_timer c l)).
  Proof.
    exact (each_comm _ _ _ _ (c_acs _ _ _ _) with_acs (a_id _ _ _) td_id (fun _ => update_ac_timer _ _ _ td_eqb)
             strip (fun _ => eq_refl) (fun _ _ => eq_refl) (fun _ => eq_refl) l c).
  Qed.

  Lemma proc_zone_status_strip c l :
    proc_zone_status (strip c) l = (strip (fst (proc_zone_status c l)), snd (proc_zone_status c l)).
  Proof.
    exact (each_comm _ _ _ _ (c_zones _ _ _ _) (with_zones _ _ _ _) (z_id _) zs_id (fun c => update_zone _ _ _ _ zs_eqb (c_acs _ _ _ _ c))
             strip (fun _ => eq_refl) (fun _ _ => eq_refl) (fun _ => eq_refl) l c).
  Qed.

  Lemma strip_on_event c e :
    strip (fst (on_event c e)) = strip (fst (on_event (strip c) e)) /\
    model_outs (snd (on_event c e)) = model_outs (snd (on_event (strip c) e)).
  Proof.
    unfold Core.on_event. change (c_state _ _ _ _ (strip c)) with (c_state _ _ _ _ c).
    destruct e as [u vs|l|b|l|l|l|l|b|ac info|].
    - (* version: when connected, only AirTouch-level notifications differ *)
      destruct (c_state _ _ _ _ c); split; try reflexivity. cbn [snd].
      destruct (version_eqb _ _); destruct (version_eqb _ _); cbn [c_subs strip]; rewrite ?model_outs_notify; reflexivity.
    - (* names *) destruct (c_state _ _ _ _ c); split; reflexivity.
    - (* names echo *) destruct b, (c_state _ _ _ _ c); split; reflexivity.
    - (* ability *)
      change (c_zones _ _ _ _ (strip c)) with (c_zones _ _ _ _ c). change (c_acs _ _ _ _ (strip c)) with (c_acs _ _ _ _ c).
      destruct (proc_ability_from _ _ _ _ _ _ _ _ _ _ _) as [acs [|]]; destruct (c_state _ _ _ _ c); split; reflexivity.
    - (* AC status *) rewrite proc_ac_status_strip. destruct (proc_ac_status c l), (c_state _ _ _ _ c); split; reflexivity.
    - (* timer *) rewrite proc_timer_strip. destruct (proc_timer c l), (c_state _ _ _ _ c); split; reflexivity.
    - (* zone status *) rewrite proc_zone_status_strip. destruct (proc_zone_status c l), (c_state _ _ _ _ c); split; reflexivity.
    - (* zone status echo *) destruct b, (c_state _ _ _ _ c); split; reflexivity.
    - (* error text *)
      change (c_acs _ _ _ _ (strip c)) with (c_acs _ _ _ _ c).
      destruct (find_ac _ _ _ (c_acs _ _ _ _ c) ac), (c_state _ _ _ _ c); split; reflexivity.
    - (* other *) destruct (c_state _ _ _ _ c); split; reflexivity.
  Qed.

  (* clients equal up to [strip] stay so, and emit the same model outputs *)
  Lemma strip_run_events es : forall c c', strip c = strip c' ->
    strip (fst (run_events c es)) = strip (fst (run_events c' es)) /\
    model_outs (snd (run_events c es)) = model_outs (snd (run_events c' es)).
  Proof.
    induction es as [|e r IH]; intros c c' E; [now split|].
    cbn [Core.run_events].
    destruct (strip_on_event c e) as [H1 H2]. destruct (strip_on_event c' e) as [H1' H2']. rewrite <- E in H1', H2'.
    destruct (on_event c e) as [c1 o1]. destruct (on_event c' e) as [c1' o1']. cbn [fst snd] in *.
    destruct (IH c1 c1') as [A1 A2]; [congruence|].
    destruct (run_events c1 r) as [c2 o2]. destruct (run_events c1' r) as [c2' o2']. cbn [fst snd] in *.
    rewrite !model_outs_app. split; [exact A1|congruence].
  Qed.

  Lemma shutdown_empties (c : client) :
    c_state _ _ _ _ (on_shutdown c) = Closed /\ c_zones _ _ _ _ (on_shutdown c) = [] /\ c_acs _ _ _ _ (on_shutdown c) = [] /\
    c_initialised _ _ _ _ (on_shutdown c) = false /\ c_hb_started _ _ _ _ (on_shutdown c) = false.
  Proof. repeat split. Qed.

  (* whatever the client held, after shutdown() and init() it is - up to the remembered version and the
     AirTouch-level subscribers - a fresh object on which init() was called *)
  Lemma reinit_is_fresh (c : client) :
    strip (on_init (on_shutdown c)) = strip (on_init (empty (c_uses_poll _ _ _ _ c))).
  Proof. reflexivity. Qed.

  (* ... and stays so: the connected notification and any sequence of frames leave it with the same model,
     the same handshake state and the same requests / notifications / task starts as the fresh object *)
  Lemma reinit_like_fresh (c : client) es :
    let old := on_connected (on_init (on_shutdown c)) in
    let new := on_connected (on_init (empty (c_uses_poll _ _ _ _ c))) in
    snd old = snd new /\
    strip (fst (run_events (fst old) es)) = strip (fst (run_events (fst new) es)) /\
    model_outs (snd (run_events (fst old) es)) = model_outs (snd (run_events (fst new) es)).
  Proof.
    cbn zeta. split; [reflexivity|]. now apply strip_run_events.
  Qed.
End P.

