(* PollProofs.v — the AT4 group-status poll: fires after every full period of silence while
   connected, again and again; never fires while group statuses keep arriving in time. *)
From Coq Require Import ZArith List Lia.
From PV Require Import api.Poll.
Import ListNotations.
Open Scope Z_scope.

Definition requests (l : list pev) : list Z :=
  concat (map (fun e => match e with PRequest t => [t] | PTime _ => [] end) l).

Lemma requests_app a b : requests (a ++ b) = requests a ++ requests b.
Proof. unfold requests. now rewrite map_app, concat_app. Qed.

Lemma prun_cons P s o ops : prun P s (o :: ops) =
  (fst (prun P (fst (pstep P s o)) ops), snd (pstep P s o) ++ snd (prun P (fst (pstep P s o)) ops)).
Proof. cbn. destruct (pstep P s o), (prun P _ ops). reflexivity. Qed.

(* the deadline passes while connected: a request exactly at the deadline, and the next
   deadline one period later *)
Lemma poll_fires P s dt : p_run s = true -> p_dead s <= p_now s + dt ->
  pstep P s (PAdv dt true) = (mkP true (p_dead s + P) (p_dead s), [PRequest (p_dead s); PTime (p_dead s)]).
Proof. intros Hr Hd. unfold pstep. rewrite Hr. cbn [negb]. apply Z.leb_le in Hd. now rewrite Hd. Qed.

Fixpoint silent_advances (k : nat) (big : Z) : list pop :=
  match k with O => [] | S k' => PAdv big true :: silent_advances k' big end.
Fixpoint arith (k : nat) (d P : Z) : list Z := match k with O => [] | S k' => d :: arith k' (d + P) P end.

(* silence for as long as it lasts: k passages of the deadline give requests at
   d, d + P, ..., d + (k-1) P *)
Lemma poll_repeats P : forall k s big, p_run s = true -> P <= big -> p_dead s <= p_now s + big ->
  requests (snd (prun P s (silent_advances k big))) = arith k (p_dead s) P.
Proof.
  induction k as [|k IH]; intros s big Hr Hb Hd; [reflexivity|].
  cbn [silent_advances]. rewrite prun_cons, (poll_fires P s big Hr Hd). cbn [fst snd].
  rewrite requests_app, IH by (trivial; cbn; lia). reflexivity.
Qed.

(* a group status re-arms the deadline one period from now *)
Lemma poll_seen P s : p_run s = true -> pstep P s PSeen = (mkP true (p_now s + P) (p_now s), []).
Proof. intros Hr. unfold pstep. now rewrite Hr. Qed.

(* as long as time never reaches the deadline (group statuses keep re-arming it), nothing
   is requested *)
Definition stays_early (s : pstate) (o : pop) : Prop :=
  match o with PAdv dt _ => p_now s + dt < p_dead s | _ => True end.

Fixpoint early (P : Z) (s : pstate) (ops : list pop) : Prop :=
  match ops with
  | [] => True
  | o :: r => stays_early s o /\ early P (fst (pstep P s o)) r
  end.

Lemma step_quiet P s o : stays_early s o -> requests (snd (pstep P s o)) = [].
Proof.
  destruct o as [| | |dt c]; cbn [stays_early pstep]; intros H; try reflexivity.
  - now destruct (p_run s).
  - destruct (p_run s); [|reflexivity]. cbn [negb]. apply Z.leb_gt in H. now rewrite H.
Qed.

Lemma poll_quiet P : forall ops s, early P s ops -> requests (snd (prun P s ops)) = [].
Proof.
  induction ops as [|o ops IH]; intros s H; [reflexivity|]. destruct H as [He Hr].
  rewrite prun_cons. cbn [snd]. now rewrite requests_app, (step_quiet P s o He), (IH _ Hr).
Qed.

(* a disconnected client does not poll, but the deadline is still re-armed *)
Lemma poll_disconnected P s dt : p_run s = true -> p_dead s <= p_now s + dt ->
  requests (snd (pstep P s (PAdv dt false))) = [] /\ p_dead (fst (pstep P s (PAdv dt false))) = p_dead s + P.
Proof. intros Hr Hd. unfold pstep. rewrite Hr. cbn [negb]. apply Z.leb_le in Hd. rewrite Hd. split; reflexivity. Qed.
