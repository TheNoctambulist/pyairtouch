(* ClientProofs.v — the record equalities and the zone-to-AC association of the AirTouch 4
   and AirTouch 5 clients (Client4.v, Client5.v): dataclass equality is reflexive, which
   zones an ability record assigns to its AC. *)
From Coq Require Import ZArith List Bool.
From PV Require Import at4.Msg4 at5.Msg5 api.Client4 api.Client5.
Import ListNotations.
Open Scope N_scope.

Lemma optN_eqb_refl o : optN_eqb o o = true. Proof. destruct o; cbn; [apply N.eqb_refl|reflexivity]. Qed.
Lemma optZ_eqb_refl o : optZ_eqb o o = true. Proof. destruct o; cbn; [apply Z.eqb_refl|reflexivity]. Qed.

Lemma group_status_eqb_refl s : group_status_eqb s s = true.
Proof. unfold group_status_eqb. now rewrite !N.eqb_refl, !eqb_reflx, optN_eqb_refl, optZ_eqb_refl. Qed.
Lemma ac_status_eqb_refl s : ac_status_eqb s s = true.
Proof. unfold ac_status_eqb. now rewrite !N.eqb_refl, !eqb_reflx, Z.eqb_refl. Qed.
Lemma timer_data_eqb_refl s : timer_data_eqb s s = true.
Proof. unfold timer_data_eqb, timer_state_eqb. now rewrite !N.eqb_refl, !eqb_reflx. Qed.
Lemma zone_status_eqb_refl s : zone_status_eqb s s = true.
Proof. unfold zone_status_eqb. now rewrite !N.eqb_refl, !eqb_reflx, !optZ_eqb_refl. Qed.
Lemma ac5_status_eqb_refl s : ac5_status_eqb s s = true.
Proof. unfold ac5_status_eqb. now rewrite !N.eqb_refl, !eqb_reflx, !Z.eqb_refl. Qed.

(* dataclass equality separates records that differ in an exposed attribute: equal only if
   every field is equal *)
Lemma ac_status_eqb_eq a b : ac_status_eqb a b = true ->
  as_number a = as_number b /\ as_setpoint a = as_setpoint b /\ as_temp a = as_temp b /\ as_error a = as_error b /\
  as_spill a = as_spill b /\ as_timer a = as_timer b.
Proof.
  unfold ac_status_eqb.
  intros [[[[[[[[Hn%N.eqb_eq _]%andb_prop _]%andb_prop _]%andb_prop Hs%eqb_prop]%andb_prop Ht%eqb_prop]%andb_prop
            Hsp%N.eqb_eq]%andb_prop Hte%Z.eqb_eq]%andb_prop He%N.eqb_eq]%andb_prop.
  now repeat split.
Qed.

(* zone-to-AC association (AirTouch 4): the group display bitmap when the ability record
   carries one; every zone when the console describes a single AC; start .. start+count-1
   otherwise *)
Lemma assign4_bitmap all ids ab gs : ab_groups ab = Some gs -> forallb (known ids) gs = true -> assign4 all ids ab = Some gs.
Proof. intros H K. unfold assign4. now rewrite H, K. Qed.
Lemma assign4_single ids ab : ab_groups ab = None -> assign4 [ab] ids ab = Some ids.
Proof. intros H. unfold assign4. now rewrite H. Qed.
Lemma assign4_range all ids ab : ab_groups ab = None -> length all <> 1%nat ->
  forallb (known ids) (range_from (ab_start ab) (ab_count ab)) = true ->
  assign4 all ids ab = Some (range_from (ab_start ab) (ab_count ab)).
Proof.
  intros H L K. unfold assign4. rewrite H. assert (Nat.eqb (length all) 1 = false) as -> by (now apply Nat.eqb_neq).
  now rewrite K.
Qed.
Lemma assign5_range all ids ab : forallb (known ids) (range_from (ab5_start ab) (ab5_count ab)) = true ->
  assign5 all ids ab = Some (range_from (ab5_start ab) (ab5_count ab)).
Proof. intros K. unfold assign5. now rewrite K. Qed.
(* a zone number the console never named: the ability message is not accepted (KeyError) *)
Lemma assign5_unknown all ids ab : forallb (known ids) (range_from (ab5_start ab) (ab5_count ab)) = false ->
  assign5 all ids ab = None.
Proof. intros K. unfold assign5. now rewrite K. Qed.
