(* CommonProofs.v — C19: equal views, equal verdicts and equal meanings over both generations. *)
From Coq Require Import ZArith List Bool Lia.
From PV Require Import at4.Msg4 at5.Msg5 spec.Spec4 spec.Spec5 api.ApiTypes api.Api4 api.Api5 api.ApiProofs api.Common.
Import ListNotations.
Open Scope N_scope.

Definition kac_ok (k : kac) : Prop := length (k_modes k) = 5%nat /\ length (k_fans k) = 7%nat.

Lemma picked_snoc_false {A} (y : A) : forall l bs, length l = length bs ->
  map fst (filter snd (combine (l ++ [y]) (bs ++ [false]))) = map fst (filter snd (combine l bs)).
Proof.
  induction l as [|a l IH]; intros [|b bs] H; try discriminate H; [reflexivity|].
  injection H as H. cbn. destruct b; cbn; now rewrite IH.
Qed.

Lemma fans_common (l : list bool) : length l = 7%nat ->
  map fst (filter snd (combine all_fans5 (l ++ [false]))) = map fst (filter snd (combine all_fans4 l)).
Proof.
  intros H. apply picked_snoc_false. now rewrite H.
Qed.

Lemma nth_snoc_default {A} (d : A) l : forall i, nth i (l ++ [d]) d = nth i l d.
Proof. induction l as [|a l IH]; intros [|i]; cbn; auto. now destruct i. Qed.

Lemma fan_bit_common l f : fan_bit (l ++ [false]) f = fan_bit l f.
Proof. apply nth_snoc_default. Qed.
Lemma fan_bit_ia_common l : length l = 7%nat -> fan_bit (l ++ [false]) PF_IntelligentAuto = false.
Proof. intros H. rewrite fan_bit_common. now apply fan_bit_ia4. Qed.

Lemma fan_tables_common f : selected_fan5 (fan5_of f) = fan_speed4 f /\ active_fan5 (fan5_of f) = fan_speed4 f.
Proof. destruct f; split; reflexivity. Qed.

(* one [min, max] for every mode: the mode-dependent AirTouch 5 limits collapse *)
Lemma limits5_common k : g5_min_target (ac5_of k) = k_min k /\ g5_max_target (ac5_of k) = k_max k.
Proof. unfold g5_min_target, g5_max_target, ac5_of; cbn. destruct (k_mode k); rewrite ?N.min_id, ?N.max_id; auto. Qed.

(* every attribute both generations support reads the same *)
Theorem views_equal k : kac_ok k -> view4 (ac4_of k) = view5 (ac5_of k).
Proof.
  intros [Hm Hf]. unfold view4, view5.
  (* the fields that are not equal by computation are rewritten one by one; [f_equal] would try
     conversion on each of the 15 fields and takes minutes to fail on these *)
  destruct (limits5_common k) as [-> ->].
  unfold supported_fans5, g5_selected_fan, g5_active_fan. cbn [ac5_of a5_ability a5_status ab5_fans a5s_fan].
  destruct (fan_tables_common (k_fan k)) as [-> ->]. rewrite (fans_common _ Hf).
  replace (g5_power_state (ac5_of k)) with (g4_power_state (ac4_of k))
    by (unfold g4_power_state, g5_power_state; cbn; now destruct (k_on k)).
  reflexivity.
Qed.

Theorem zone_views_equal k : zview4 (zone4_of k) = zview5 (zone5_of k).
Proof. destruct k as [n nm pw me se ba te da sp sl]. now destruct pw, me, se. Qed.

(* kac_ok: the table lengths; wf_k adds the ranges both generations can send (AC number < 16, limits within 10..35) *)
Definition wf_k (k : kac) : Prop := kac_ok k /\ k_num k < 16 /\ 10 <= k_min k /\ k_min k <= k_max k /\ k_max k <= 35.

Lemma wf4_of k : wf_k k -> wf_ac4 (ac4_of k).
Proof. intros [[Hm Hf] [Hn [H1 [H2 H3]]]]. unfold wf_ac4, ac4_of, a4_id. cbn. repeat split; try assumption; lia. Qed.
Lemma wf5_of k : wf_k k -> wf_ac5 (ac5_of k).
Proof.
  intros [[Hm Hf] [Hn _]]. unfold wf_ac5, ac5_of, a5_id. cbn [a5_ability a5_status ab5_modes ab5_fans a5s_number].
  split; [exact Hm|]. split; [rewrite app_length, Hf; reflexivity|exact Hn].
Qed.

Definition same_meaning (o4 : outcome msg4) (o5 : outcome msg5) : Prop :=
  match o4, o5 with
  | Refused, Refused => True
  | Sent m4 p4, Sent m5 p5 =>
    p4 = p5 /\ exists s4 s5, reads_ac4 m4 s4 /\ reads_ac5 m5 s5 /\ intent4 s4 = intent5 s5
  | _, _ => False
  end.

Lemma same_meaning_intro o4 o5 p s4 s5 :
  (exists m, o4 = Sent m p /\ reads_ac4 m s4) -> (exists m, o5 = Sent m p /\ reads_ac5 m s5) -> intent4 s4 = intent5 s5 ->
  same_meaning o4 o5.
Proof. intros [m4 [-> R4]] [m5 [-> R5]] E. split; [reflexivity|]. now exists s4, s5. Qed.

(* power: toggle / off / on mean the same; away / sleep exist on AirTouch 5 only (documented) *)
Theorem same_power k p : wf_k k -> (p = PC_Toggle \/ p = PC_Off \/ p = PC_On) ->
  same_meaning (set_power4 (ac4_of k) p) (set_power5 (ac5_of k) p).
Proof.
  intros W Hp. pose proof (set_power4_spec (ac4_of k) p (wf4_of k W)) as S4.
  pose proof (set_power5_spec (ac5_of k) p (wf5_of k W)) as S5.
  destruct Hp as [->|[->| ->]]; exact (same_meaning_intro _ _ _ _ _ S4 S5 eq_refl).
Qed.

Theorem same_mode k m on : wf_k k -> same_meaning (set_mode4 (ac4_of k) m on) (set_mode5 (ac5_of k) m on).
Proof.
  intros W. pose proof (set_mode4_spec (ac4_of k) m on (wf4_of k W)) as S4.
  pose proof (set_mode5_spec (ac5_of k) m on (wf5_of k W)) as S5.
  change (ab5_modes (a5_ability (ac5_of k))) with (k_modes k) in S5.
  change (ab_modes (a4_ability (ac4_of k))) with (k_modes k) in S4.
  destruct (mode_bit (k_modes k) m); [exact (same_meaning_intro _ _ _ _ _ S4 S5 eq_refl)|now rewrite S4, S5].
Qed.

Theorem same_fan k f : wf_k k -> same_meaning (set_fan4 (ac4_of k) f) (set_fan5 (ac5_of k) f).
Proof.
  intros W. pose proof (set_fan4_spec (ac4_of k) f (wf4_of k W)) as S4.
  pose proof (set_fan5_spec (ac5_of k) f (wf5_of k W)) as S5.
  change (ab5_fans (a5_ability (ac5_of k))) with (k_fans k ++ [false]) in S5. rewrite fan_bit_common in S5.
  change (ab_fans (a4_ability (ac4_of k))) with (k_fans k) in S4.
  destruct (fan_bit (k_fans k) f); [|now rewrite S4, S5].
  destruct S4 as [m4 [fr [Efr S4]]]. apply (same_meaning_intro _ _ _ _ _ (ex_intro _ m4 S4) S5).
  destruct f; try discriminate Efr; injection Efr as <-; reflexivity.
Qed.

(* set-point: a whole number of degrees (m * 2^e with e >= 0) is clipped into the same limits
   and asks for the same temperature on both wires *)
Theorem same_target k m e : wf_k k -> (0 <= e)%Z ->
  same_meaning (set_target4 (ac4_of k) m e) (set_target5 (ac5_of k) m e).
Proof.
  intros W He. pose proof W as [_ [_ [H10 [Hmm H35]]]].
  destruct (set_target4_spec (ac4_of k) m e (wf4_of k W)) as [_ S4].
  destruct (limits5_common k) as [L5min L5max].
  destruct (set_target5_spec (ac5_of k) m e (wf5_of k W)) as [_ S5]; try (rewrite ?L5min, ?L5max; assumption).
  apply (same_meaning_intro _ _ _ _ _ S4 S5).
  (* only the set-points are left: clip lo hi x * 10 = clip (lo * 10) (hi * 10) (x * 10) for x = m * 2^e *)
  unfold intent4, intent5. cbn. f_equal. f_equal. rewrite L5min, L5max.
  change (g4_min_target (ac4_of k)) with (k_min k). change (g4_max_target (ac4_of k)) with (k_max k).
  unfold round0, round1. rewrite !(dy_round_int m e _ He). unfold clip. lia.
Qed.

Definition same_zone_meaning (o4 : outcome msg4) (o5 : outcome msg5) : Prop :=
  match o4, o5 with
  | Refused, Refused => True
  | Sent m4 p4, Sent m5 p5 =>
    p4 = p5 /\ exists s4 s5, reads_group4 m4 s4 /\ reads_zone5 m5 s5 /\ zintent4 s4 = zintent5 s5
  | _, _ => False
  end.

Lemma same_zone_meaning_intro o4 o5 p s4 s5 :
  (exists m, o4 = Sent m p /\ reads_group4 m s4) -> (exists m, o5 = Sent m p /\ reads_zone5 m s5) -> zintent4 s4 = zintent5 s5 ->
  same_zone_meaning o4 o5.
Proof. intros [m4 [-> R4]] [m5 [-> R5]] E. split; [reflexivity|]. now exists s4, s5. Qed.

Lemma z4_id_of k : kz_num k < 64 -> z4_id (zone4_of k) < 256.
Proof. unfold z4_id, zone4_of; cbn; lia. Qed.

Theorem same_zone_power k p : kz_num k < 64 -> same_zone_meaning (zone_set_power4 (zone4_of k) p) (zone_set_power5 (zone5_of k) p).
Proof.
  intros Hn. pose proof (zone_set_power4_spec (zone4_of k) p (z4_id_of k Hn)) as S4.
  replace (match p with PZ_Turbo => _ | _ => true end) with true in S4 by now destruct p.
  exact (same_zone_meaning_intro _ _ _ _ _ S4 (zone_set_power5_spec (zone5_of k) p Hn) eq_refl).
Qed.

Theorem same_zone_damper k p : kz_num k < 64 -> same_zone_meaning (zone_set_damper4 (zone4_of k) p) (zone_set_damper5 (zone5_of k) p).
Proof.
  intros Hn. pose proof (zone_set_damper4_spec (zone4_of k) p (z4_id_of k Hn)) as S4.
  pose proof (zone_set_damper5_spec (zone5_of k) p Hn) as S5.
  destruct ((p <? 0) || (100 <? p))%Z; [now rewrite S4, S5|exact (same_zone_meaning_intro _ _ _ _ _ S4 S5 eq_refl)].
Qed.

(* a whole number of degrees both protocols can carry (10 .. 35 degC) *)
Theorem same_zone_target k m e : kz_num k < 64 -> (0 <= e)%Z -> (10 <= m * 2 ^ e <= 35)%Z ->
  same_zone_meaning (zone_set_target4 (zone4_of k) m e) (zone_set_target5 (zone5_of k) m e).
Proof.
  intros Hn He Hr. pose proof (zone_set_target4_spec (zone4_of k) m e (z4_id_of k Hn)) as S4.
  pose proof (zone_set_target5_spec (zone5_of k) m e Hn) as S5.
  change (gs_sensor (z4_status (zone4_of k))) with (kz_sensor k) in S4.
  change (zs_sensor (z5_status (zone5_of k))) with (kz_sensor k) in S5.
  destruct (kz_sensor k); [|now rewrite S4, S5].
  unfold round0 in S4. unfold round1 in S5. rewrite (dy_round_int m e _ He), Z.mul_1_r in S4. rewrite (dy_round_int m e _ He) in S5.
  exact (same_zone_meaning_intro _ _ _ _ _ (S4 ltac:(lia)) (S5 ltac:(lia)) eq_refl).
Qed.

(* the control-method part of a zone set-point / damper request is NOT the same: AirTouch 4
   also switches the zone to the control method the setting implies, AirTouch 5 keeps it
   (the AT5 zone control message of the package has no control-type field) *)
Theorem zone_method_differs :
  let k := mkKZone 1 [] ZPS_On ZMS_Damper true Bat_Normal (Some 215%Z) 50 22 false in
  exists m4 m5 s4 s5 p, zone_set_damper4 (zone4_of k) 40 = Sent m4 p /\ zone_set_damper5 (zone5_of k) 40 = Sent m5 p /\
    reads_group4 m4 s4 /\ reads_zone5 m5 s5 /\ sgc_method s4 = SetTo ByPercentage /\ szc_method s5 = Keep.
Proof.
  cbn zeta. eexists. eexists. eexists. eexists. eexists. split; [reflexivity|]. split; [reflexivity|].
  split; [eexists; eexists; eexists; repeat split; reflexivity|]. split; [eexists; eexists; eexists; repeat split; reflexivity|].
  split; reflexivity.
Qed.
