(* CoreProofs.v — facts about the generic client core (Core.v), for any record types:
   dictionaries, "latest report wins" (C10), who is notified of what (C12), the handshake
   (C09), refresh after reconnection (C14). *)
From Coq Require Import ZArith List.
From PV Require Import api.Core.
Import ListNotations.
Open Scope N_scope.

(* the most recent record about entity [id] in a list of records, [d] if there is none *)
Definition latest {R} (rid : R -> N) (d : R) (id : N) (l : list R) : R :=
  fold_left (fun acc s => if rid s =? id then s else acc) l d.

(* The three record loops of Core.v (proc_ac_status, proc_timer, proc_zone_status) are one
   loop, [each], and are instances of it by conversion.  [get] / [put] read and replace the
   dictionary the client holds (a lens: get (put c d) = d); [upd] updates the object a record
   is about and says what to send and whom to notify - it may look at the client (update_zone
   reads the AC list); [new] is the object part of [upd].  What is proved of [each] holds of
   the three by applying it to their lens and update, the lens laws by eq_refl (the timer loop has its
   one instance in LifeProofs.v). *)
Section Each.
  Variables C O R X : Type.
  Variable get : C -> list O.
  Variable put : C -> list O -> C.
  Variable oid : O -> N.
  Variable rid : R -> N.
  Variable upd : C -> O -> R -> O * list X.

  Fixpoint set_obj (d : list O) (o : O) : list O :=
    match d with
    | [] => [o]
    | x :: r => if oid x =? oid o then o :: r else x :: set_obj r o
    end.
  Definition find_obj (d : list O) (id : N) : option O := find (fun o => oid o =? id) d.

  Fixpoint each (c : C) (l : list R) : C * list X :=
    match l with
    | [] => (c, [])
    | s :: r =>
      match find_obj (get c) (rid s) with
      | Some o => let '(o', o1) := upd c o s in
                  let '(c2, o2) := each (put c (set_obj (get c) o')) r in (c2, o1 ++ o2)
      | None => each c r
      end
    end.

  Lemma find_set d o id : find_obj (set_obj d o) id = if oid o =? id then Some o else find_obj d id.
  Proof.
    unfold find_obj. induction d as [|x d IH]; cbn; [reflexivity|].
    destruct (N.eqb_spec (oid x) (oid o)) as [E|E]; cbn.
    - rewrite E. now destruct (oid o =? id).
    - rewrite IH. destruct (N.eqb_spec (oid o) id) as [Eo|_]; [|reflexivity]. rewrite <- Eo. now apply N.eqb_neq in E as ->.
  Qed.

  Lemma find_obj_id d id o : find_obj d id = Some o -> oid o = id.
  Proof. intros H. apply find_some in H as [_ H]. now apply N.eqb_eq. Qed.

  (* one turn of the loop through projections: the proofs below rewrite with it and never
     take the pairs apart *)
  Lemma each_step c s r : each c (s :: r) =
    match find_obj (get c) (rid s) with
    | Some o => let e := each (put c (set_obj (get c) (fst (upd c o s)))) r in (fst e, snd (upd c o s) ++ snd e)
    | None => each c r
    end.
  Proof. cbn [each]. destruct (find_obj _ _) as [o|]; [|reflexivity]. destruct (upd c o s). now destruct (each _ r). Qed.

  Lemma each_frame {T} (g : C -> T) : (forall c d, g (put c d) = g c) -> forall l c, g (fst (each c l)) = g c.
  Proof.
    intros G. induction l as [|s l IH]; intros c; [reflexivity|]. rewrite each_step.
    destruct (find_obj (get c) (rid s)) as [o|]; [|apply IH]. cbn [fst]. now rewrite IH.
  Qed.

  Lemma each_comm (h : C -> C) :
    (forall c, get (h c) = get c) -> (forall c d, put (h c) d = h (put c d)) -> (forall c, upd (h c) = upd c) ->
    forall l c, each (h c) l = (h (fst (each c l)), snd (each c l)).
  Proof.
    intros Hg Hp Hu. induction l as [|s l IH]; intros c; [reflexivity|]. rewrite !each_step, Hg, Hu.
    destruct (find_obj (get c) (rid s)) as [o|]; [|apply IH]. now rewrite Hp, IH.
  Qed.

  Hypothesis get_put : forall c d, get (put c d) = d.
  Variable new : O -> R -> O.
  Hypothesis upd_new : forall c o s, fst (upd c o s) = new o s.
  Hypothesis new_id : forall o s, oid (new o s) = oid o.

  Theorem each_find : forall l c id,
    find_obj (get (fst (each c l))) id =
    option_map (fold_left new (filter (fun s => rid s =? id) l)) (find_obj (get c) id).
  Proof.
    induction l as [|s l IH]; intros c id; [cbn; now destruct (find_obj (get c) id)|]. rewrite each_step. cbn [filter].
    destruct (find_obj (get c) (rid s)) as [b|] eqn:Fb; cbn [fst]; rewrite IH.
    - rewrite get_put, upd_new, find_set, new_id, (find_obj_id _ _ _ Fb).
      destruct (N.eqb_spec (rid s) id) as [<-|E]; [now rewrite Fb|reflexivity].   (* is the record about [id]? *)
    - destruct (N.eqb_spec (rid s) id) as [<-|E]; [now rewrite Fb|reflexivity].
  Qed.

  (* [st o]: the record stored in object [o]; [K a b]: whatever [upd] preserves from [a] to [b] *)
  Corollary each_latest (st : O -> R) (K : O -> O -> Prop) :
    (forall o s, st (new o s) = s) -> (forall a, K a a) -> (forall a b s, K a b -> K a (new b s)) ->
    forall l c id,
    match find_obj (get c) id with
    | None => find_obj (get (fst (each c l))) id = None
    | Some a => exists a', find_obj (get (fst (each c l))) id = Some a' /\ st a' = latest rid (st a) id l /\ K a a'
    end.
  Proof.
    intros Hst Kr Ks l c id. rewrite each_find. destruct (find_obj (get c) id) as [a|]; [|reflexivity].
    eexists. split; [reflexivity|].
    assert (G : forall b, K a b -> let b' := fold_left new (filter (fun s => rid s =? id) l) b in
                                   st b' = latest rid (st b) id l /\ K a b').
    { unfold latest. induction l as [|s l IH]; intros b Kb; cbn [filter fold_left]; [now split|].
      destruct (rid s =? id); cbn [fold_left]; [|now apply IH].
      rewrite <- (Hst b s) at 2. apply IH, Ks, Kb. }
    apply G, Kr.
  Qed.

  Lemma each_quiet (st : O -> R) : (forall c o, snd (upd c o (st o)) = []) -> (forall o s, st (new o s) = s) -> forall l c,
    (forall s, In s l -> exists o, find_obj (get c) (rid s) = Some o /\ st o = s) ->
    snd (each c l) = [].
  Proof.
    intros Q Hst. induction l as [|s l IH]; intros c H; [reflexivity|]. rewrite each_step.
    destruct (H s (or_introl eq_refl)) as [o [Fo <-]]. rewrite Fo. cbn [snd]. rewrite Q, upd_new.
    apply IH. intros t Ht. destruct (H t (or_intror Ht)) as [o' [Fo' E']].
    rewrite get_put, find_set, new_id, (find_obj_id _ _ _ Fo).
    destruct (N.eqb_spec (rid (st o)) (rid t)) as [E|E]; [|now exists o'].
    (* a second record about the same object is the same record *)
    rewrite <- E, Fo in Fo'. injection Fo' as <-. exists (new o (st o)). split; [reflexivity|]. now rewrite Hst.
  Qed.
End Each.

Section P.
  Variables ZS AS AB TD : Type.
  Variable zs_id : ZS -> N.
  Variable as_id : AS -> N.
  Variable ab_id : AB -> N.
  Variable td_id : TD -> N.
  Variable zs_eqb : ZS -> ZS -> bool.
  Variable as_eqb : AS -> AS -> bool.
  Variable td_eqb : TD -> TD -> bool.
  Variable as_has_error : AS -> bool.
  Variable zs_init : N -> ZS.
  Variable as_init : N -> AS.
  Variable td_init : N -> TD.
  Variable assign : list AB -> list N -> AB -> option (list N).

  Notation client := (client ZS AS AB TD).
  Notation aircon := (aircon AS AB TD).
  Notation zone := (zone ZS).
  Notation event := (event ZS AS AB TD).
  Notation on_event := (on_event ZS AS AB TD zs_id as_id ab_id td_id zs_eqb as_eqb td_eqb as_has_error zs_init as_init td_init assign).
  Notation run_events := (run_events ZS AS AB TD zs_id as_id ab_id td_id zs_eqb as_eqb td_eqb as_has_error zs_init as_init td_init assign).
  Notation proc_ac_status := (proc_ac_status ZS AS AB TD as_id as_eqb as_has_error).
  Notation proc_zone_status := (proc_zone_status ZS AS AB TD zs_id zs_eqb).
  Notation proc_timer := (proc_timer ZS AS AB TD td_id td_eqb).
  Notation update_ac_status := (update_ac_status AS AB TD as_eqb as_has_error).
  Notation update_zone := (update_zone ZS AS AB TD zs_eqb).
  Notation find_ac := (find_ac AS AB TD).
  Notation find_zone := (find_zone ZS).

  Definition with_zones (c : client) (zs : list zone) : client :=
    mkClient _ _ _ _ (c_state _ _ _ _ c) (c_version _ _ _ _ c) zs (c_acs _ _ _ _ c) (c_initialised _ _ _ _ c)
             (c_subs _ _ _ _ c) (c_hb_started _ _ _ _ c) (c_uses_poll _ _ _ _ c).

  Definition same_but_status (a a' : aircon) : Prop :=
    a_id _ _ _ a' = a_id _ _ _ a /\ a_ability _ _ _ a' = a_ability _ _ _ a /\ a_timer _ _ _ a' = a_timer _ _ _ a /\
    a_zones _ _ _ a' = a_zones _ _ _ a /\ a_subs _ _ _ a' = a_subs _ _ _ a /\ a_subs_state _ _ _ a' = a_subs_state _ _ _ a.

  (* AC status: after processing a status message, every known AC holds the latest record
     addressed to it (or what it held before); unknown ids create nothing; ability, zone
     list, timer report and subscribers are untouched (not the error text: update_ac_status
     drops it when the error code goes) *)
  Lemma proc_ac_status_latest l (c : client) id :
    match find_ac (c_acs _ _ _ _ c) id with
    | None => find_ac (c_acs _ _ _ _ (fst (proc_ac_status c l))) id = None
    | Some a => exists a', find_ac (c_acs _ _ _ _ (fst (proc_ac_status c l))) id = Some a' /\
                           a_status _ _ _ a' = latest as_id (a_status _ _ _ a) id l /\ same_but_status a a'
    end.
  Proof.
    apply (each_latest _ _ _ _ (c_acs _ _ _ _) (with_acs _ _ _ _) (a_id _ _ _) as_id (fun _ => update_ac_status)
             (fun _ _ => eq_refl) (fun a s => fst (update_ac_status a s)) (fun _ _ _ => eq_refl))
      with (st := a_status _ _ _) (K := same_but_status).
    - (* new_id *) intros a s. unfold Core.update_ac_status. now destruct (as_eqb _ _).
    - (* st (new a s) = s *) intros a s. unfold Core.update_ac_status. now destruct (as_eqb _ _).
    - (* K a a *) intros a. unfold same_but_status. repeat split.
    - (* new keeps K *) intros a b s K. unfold Core.update_ac_status. destruct (as_eqb _ _); exact K.
  Qed.

  (* zone status: the same for zones *)
  Lemma proc_zone_status_latest l (c : client) id :
    match find_zone (c_zones _ _ _ _ c) id with
    | None => find_zone (c_zones _ _ _ _ (fst (proc_zone_status c l))) id = None
    | Some z => exists z', find_zone (c_zones _ _ _ _ (fst (proc_zone_status c l))) id = Some z' /\
                           z_status _ z' = latest zs_id (z_status _ z) id l /\
                           z_id _ z' = z_id _ z /\ z_name _ z' = z_name _ z /\ z_subs _ z' = z_subs _ z
    end.
  Proof.
    apply (each_latest _ _ _ _ (c_zones _ _ _ _) with_zones (z_id _) zs_id (fun c => update_zone (c_acs _ _ _ _ c))
             (fun _ _ => eq_refl) (fun z s => mkZone _ (z_id _ z) (z_name _ z) s (z_subs _ z)))
      with (st := z_status _) (K := fun z z' => z_id _ z' = z_id _ z /\ z_name _ z' = z_name _ z /\ z_subs _ z' = z_subs _ z).
    - (* upd_new *) intros c1 z s. unfold Core.update_zone. now destruct (zs_eqb _ _).
    - (* new_id *) reflexivity.
    - (* st (new z s) = s *) reflexivity.
    - (* K z z *) now intros z.
    - (* new keeps K *) intros z z' s K. exact K.
  Qed.

  Lemma proc_zone_status_acs : forall l (c : client), c_acs _ _ _ _ (fst (proc_zone_status c l)) = c_acs _ _ _ _ c.
  Proof.
    exact (each_frame _ _ _ _ (c_zones _ _ _ _) with_zones (z_id _) zs_id (fun c => update_zone (c_acs _ _ _ _ c))
             (c_acs _ _ _ _) (fun _ _ => eq_refl)).
  Qed.

  Hypothesis zs_eqb_refl : forall s, zs_eqb s s = true.
  Hypothesis as_eqb_refl : forall s, as_eqb s s = true.
  Hypothesis td_eqb_refl : forall s, td_eqb s s = true.

  (* an identical report: nobody is called *)
  Lemma zone_no_echo acs (z : zone) : snd (update_zone acs z (z_status _ z)) = [].
  Proof. unfold Core.update_zone. now rewrite zs_eqb_refl. Qed.
  Lemma ac_status_no_echo (a : aircon) : snd (update_ac_status a (a_status _ _ _ a)) = [].
  Proof. unfold Core.update_ac_status. now rewrite as_eqb_refl. Qed.
  Lemma ac_timer_no_echo (a : aircon) : snd (update_ac_timer AS AB TD td_eqb a (a_timer _ _ _ a)) = [].
  Proof. unfold update_ac_timer. now rewrite td_eqb_refl. Qed.

  (* a changed zone report: every subscriber of the zone once with the zone id, every general
     subscriber of each AC that lists the zone once with the AC id - and nobody else: in
     particular no AC-state-only subscriber *)
  Lemma zone_change_notifies acs (z : zone) s : zs_eqb (z_status _ z) s = false ->
    snd (update_zone acs z s) =
      map (fun sub => ONotifyZone sub (z_id _ z)) (z_subs _ z) ++
      concat (map (fun a => map (fun sub => ONotifyAc sub (a_id _ _ _ a)) (a_subs _ _ _ a)) (owners AS AB TD acs (z_id _ z))).
  Proof. intros H. unfold Core.update_zone. now rewrite H. Qed.

  (* a changed AC status: general and AC-state-only subscribers, each once (set union), plus
     the error-text request while an error code is present *)
  Lemma ac_change_notifies (a : aircon) s : as_eqb (a_status _ _ _ a) s = false ->
    snd (update_ac_status a s) =
      (if as_has_error s then [OSendReq (RErrInfo (a_id _ _ _ a))] else []) ++
      map (fun sub => ONotifyAc sub (a_id _ _ _ a)) (ac_all_subs AS AB TD a).
  Proof. intros H. unfold Core.update_ac_status. now rewrite H. Qed.

  Lemma add_sub_in l s : In s (add_sub l s).
  Proof.
    unfold add_sub. destruct (existsb (Nat.eqb s) l) eqn:E.
    - apply existsb_exists in E as [x [Hx Ex]]. apply Nat.eqb_eq in Ex. now subst.
    - apply in_or_app. right. now left.
  Qed.
  Lemma add_sub_idem l s : add_sub (add_sub l s) s = add_sub l s.
  Proof.
    unfold add_sub at 1. assert (existsb (Nat.eqb s) (add_sub l s) = true) as ->; [|reflexivity].
    apply existsb_exists. exists s. split; [apply add_sub_in|apply Nat.eqb_refl].
  Qed.
  Lemma del_sub_out l s : ~ In s (del_sub l s).
  Proof. unfold del_sub. intros H. apply filter_In in H as [_ H]. now rewrite Nat.eqb_refl in H. Qed.
  Lemma add_sub_nodup l s : NoDup l -> NoDup (add_sub l s).
  Proof.
    intros H. unfold add_sub. destruct (existsb (Nat.eqb s) l) eqn:E; [exact H|].
    apply (NoDup_Add (Add_app s l [])). rewrite app_nil_r. split; [exact H|]. intros Hin.
    rewrite (proj2 (existsb_exists _ _)) in E; [discriminate E|]. exists s. split; [exact Hin|apply Nat.eqb_refl].
  Qed.
  (* nodup_nat folds add_sub *)
  Lemma nodup_nat_once (l : list nat) : NoDup (nodup_nat l).
  Proof.
    enough (G : forall acc, NoDup acc -> NoDup (fold_left add_sub l acc)) by exact (G [] (NoDup_nil _)).
    induction l as [|x l IH]; intros acc H; [exact H|]. apply IH, add_sub_nodup, H.
  Qed.

  Notation proc_names := (proc_names ZS AS AB TD zs_init).
  Notation proc_ability_from := (proc_ability_from AS AB TD ab_id as_init td_init assign).
  Notation finish_init := (finish_init ZS AS AB TD).
  Notation set_state := (set_state ZS AS AB TD).
  Notation with_acs := (with_acs ZS AS AB TD).

  (* a frame that is not the answer awaited in handshake state [st] (and not an error text,
     which is accepted at any time): unknown types, unsolicited status, duplicates of
     earlier answers, echoes not addressed to the client *)
  Definition noise_for (st : astate) (e : event) : bool :=
    match e, st with
    | EvErrInfo _ _ _ _ _ _, _ => false
    | _, Connected => false
    | EvVersion _ _ _ _ _ _, InitVersion => false
    | EvNames _ _ _ _ _, InitNames => false
    | EvNamesEcho _ _ _ _ true, InitNames => false
    | EvAbility _ _ _ _ _, InitAbility => false
    | EvAcStatus _ _ _ _ _, InitAcStatus => false
    | EvTimer _ _ _ _ _, InitTimer => false
    | EvZoneStatus _ _ _ _ _, InitZoneStatus => false
    | EvZoneStatusEcho _ _ _ _ true, InitZoneStatus => false
    | _, _ => true
    end.

  Lemma noise_ignored (c : client) e : noise_for (c_state _ _ _ _ c) e = true -> on_event c e = (c, []).
  Proof.
    unfold noise_for, Core.on_event. destruct e as [u vs|l|b|l|l|l|l|b|ac info|]; destruct (c_state _ _ _ _ c);
      try destruct b; intros H; try discriminate H; reflexivity.
  Qed.

  Lemma noise_list_ignored : forall es (c : client),
    forallb (noise_for (c_state _ _ _ _ c)) es = true -> run_events c es = (c, []).
  Proof.
    induction es as [|e es IH]; intros c H; [reflexivity|]. cbn in H. apply andb_prop in H as [He Hes].
    cbn [Core.run_events]. rewrite (noise_ignored c e He). rewrite (IH c Hes). reflexivity.
  Qed.

  Lemma run_events_app : forall a b (c : client),
    run_events c (a ++ b) = let '(c1, o1) := run_events c a in let '(c2, o2) := run_events c1 b in (c2, o1 ++ o2).
  Proof.
    induction a as [|e a IH]; intros b c.
    - cbn. destruct (run_events c b). reflexivity.
    - cbn [app Core.run_events]. destruct (on_event c e) as [c1 o1]. rewrite IH.
      destruct (run_events c1 a) as [c2 o2]. destruct (run_events c2 b) as [c3 o3]. now rewrite app_assoc.
  Qed.

  (* noise, then the awaited answer, then the rest: the noise might as well not be there *)
  Lemma answered (c : client) ns e es c1 o1 :
    forallb (noise_for (c_state _ _ _ _ c)) ns = true -> on_event c e = (c1, o1) ->
    run_events c (ns ++ [e] ++ es) = let '(c2, o2) := run_events c1 es in (c2, o1 ++ o2).
  Proof. intros H E. rewrite run_events_app, (noise_list_ignored ns c H). cbn [app Core.run_events]. rewrite E. now destruct (run_events c1 es). Qed.

  Definition hs_version (c : client) u vs : client :=
    mkClient _ _ _ _ InitNames (u, vs) (c_zones _ _ _ _ c) (c_acs _ _ _ _ c) (c_initialised _ _ _ _ c) (c_subs _ _ _ _ c)
             (c_hb_started _ _ _ _ c) (c_uses_poll _ _ _ _ c).

  (* the six steps, one at a time, whatever noise is interleaved *)
  Theorem handshake_steps (c0 : client) n0 u vs n1 names n2 abl n3 sl n4 tl n5 zl acs :
    c_state _ _ _ _ c0 = InitVersion ->
    forallb (noise_for InitVersion) n0 = true -> forallb (noise_for InitNames) n1 = true ->
    forallb (noise_for InitAbility) n2 = true -> forallb (noise_for InitAcStatus) n3 = true ->
    forallb (noise_for InitTimer) n4 = true -> forallb (noise_for InitZoneStatus) n5 = true ->
    let c1 := hs_version c0 u vs in
    let c2 := set_state (proc_names c1 names) InitAbility in
    proc_ability_from abl (map (z_id _) (c_zones _ _ _ _ c2)) (c_acs _ _ _ _ c2) abl = (acs, true) ->
    let c3 := set_state (with_acs c2 acs) InitAcStatus in
    let '(c4, o4) := proc_ac_status c3 sl in
    let '(c5, o5) := proc_timer (set_state c4 InitTimer) tl in
    let '(c6, o6) := proc_zone_status (set_state c5 InitZoneStatus) zl in
    let '(c7, o7) := finish_init c6 in
    run_events c0 (n0 ++ [EvVersion _ _ _ _ u vs] ++ n1 ++ [EvNames _ _ _ _ names] ++ n2 ++ [EvAbility _ _ _ _ abl] ++
                   n3 ++ [EvAcStatus _ _ _ _ sl] ++ n4 ++ [EvTimer _ _ _ _ tl] ++ n5 ++ [EvZoneStatus _ _ _ _ zl])
    = (c7, [OSendReq RNames] ++ [OSendReq RAbility] ++ [OSendReq RAcStatus] ++ (o4 ++ [OSendReq RTimer]) ++
           (o5 ++ [OSendReq RZoneStatus]) ++ (o6 ++ o7)).
  Proof.
    intros S0 N0 N1 N2 N3 N4 N5 c1 c2 Hab c3.
    destruct (proc_ac_status c3 sl) as [c4 o4] eqn:E4.
    destruct (proc_timer (set_state c4 InitTimer) tl) as [c5 o5] eqn:E5.
    destruct (proc_zone_status (set_state c5 InitZoneStatus) zl) as [c6 o6] eqn:E6.
    destruct (finish_init c6) as [c7 o7] eqn:E7.
    rewrite (answered c0 n0 _ _ c1 [OSendReq RNames]); [|now rewrite S0|unfold Core.on_event; now rewrite S0].
    rewrite (answered c1 n1 (EvNames _ _ _ _ names) _ c2 [OSendReq RAbility] N1 eq_refl).
    rewrite (answered c2 n2 (EvAbility _ _ _ _ abl) _ c3 [OSendReq RAcStatus] N2);
      [|unfold Core.on_event; cbn [c_state set_state]; unfold Core.set_state at 1; cbn [c_state]; now rewrite Hab].
    (* c3 is let-bound: its state shows only once it is unfolded *)
    rewrite (answered c3 n3 (EvAcStatus _ _ _ _ sl) _ (set_state c4 InitTimer) (o4 ++ [OSendReq RTimer]) N3);
      [|unfold Core.on_event; cbn [c_state]; unfold c3 at 1; cbn [Core.set_state c_state]; now rewrite E4].
    rewrite (answered (set_state c4 InitTimer) n4 (EvTimer _ _ _ _ tl) _ (set_state c5 InitZoneStatus) (o5 ++ [OSendReq RZoneStatus]) N4);
      [|unfold Core.on_event; cbn [Core.set_state c_state]; now rewrite E5].
    rewrite <- (app_nil_r [EvZoneStatus _ _ _ _ zl]), (answered (set_state c5 InitZoneStatus) n5 _ [] c7 (o6 ++ o7) N5);
      [|unfold Core.on_event; cbn [Core.set_state c_state]; now rewrite E6, E7].
    cbn [Core.run_events]. now rewrite app_nil_r.
  Qed.

  (* at the end the client is CONNECTED and initialised, heartbeat started *)
  Lemma finish_init_state (c : client) :
    c_state _ _ _ _ (fst (finish_init c)) = Connected /\ c_initialised _ _ _ _ (fst (finish_init c)) = true /\
    c_zones _ _ _ _ (fst (finish_init c)) = c_zones _ _ _ _ c /\ c_acs _ _ _ _ (fst (finish_init c)) = c_acs _ _ _ _ c /\
    In OStartHeartbeat (snd (finish_init c)) /\ In OInitialised (snd (finish_init c)).
  Proof.
    unfold Core.finish_init. cbn [fst snd c_state c_initialised c_zones c_acs].
    split; [reflexivity|]. split; [reflexivity|]. split; [reflexivity|]. split; [reflexivity|]. split.
    - cbn. now left.
    - cbn [app In]. right. apply in_or_app. right. now left.
  Qed.

  (* a console that stops answering: in any state short of CONNECTED, frames that are not the
     awaited answer leave the client where it is - never initialised, nothing sent *)
  Theorem silent_console (c : client) es :
    c_initialised _ _ _ _ c = false -> forallb (noise_for (c_state _ _ _ _ c)) es = true ->
    c_initialised _ _ _ _ (fst (run_events c es)) = false /\ snd (run_events c es) = [].
  Proof. intros Hi H. rewrite (noise_list_ignored es c H). split; [exact Hi|reflexivity]. Qed.

  (* a connected notification in any state but CONNECTING asks for AC status and zone status *)
  Theorem reconnect_refreshes (c : client) : c_state _ _ _ _ c <> Connecting ->
    on_connected ZS AS AB TD c = (c, [OSendReq RAcStatus; OSendReq RZoneStatus]).
  Proof. intros H. unfold on_connected. destruct (c_state _ _ _ _ c); try reflexivity. contradiction. Qed.

  Theorem first_connect_starts_handshake (c : client) : c_state _ _ _ _ c = Connecting ->
    on_connected ZS AS AB TD c = (set_state c InitVersion, [OSendReq RVersion]).
  Proof. intros H. unfold on_connected. now rewrite H. Qed.

  (* a refresh answered with unchanged data: no subscriber is called *)
  Lemma proc_zone_status_unchanged : forall l (c : client),
    (forall s, In s l -> exists z, find_zone (c_zones _ _ _ _ c) (zs_id s) = Some z /\ z_status _ z = s) ->
    snd (proc_zone_status c l) = [].
  Proof.
    apply (each_quiet _ _ _ _ (c_zones _ _ _ _) with_zones (z_id _) zs_id (fun c => update_zone (c_acs _ _ _ _ c))
             (fun _ _ => eq_refl) (fun z s => mkZone _ (z_id _ z) (z_name _ z) s (z_subs _ z))); try reflexivity.
    - (* upd_new *) intros c1 z s. unfold Core.update_zone. now destruct (zs_eqb _ _).
    - (* an identical report is quiet *) intros c1 z. unfold Core.update_zone. now rewrite zs_eqb_refl.
  Qed.
End P.
