(* ApiProofs.v — facts about the API object models (Api4.v, Api5.v): validation (C11),
   value shaping and rounding (C11/C04), what the emitted frames mean (C04), retry policy of
   each public call (C02), translation tables (C10). *)
From Coq Require Import ZArith List Bool Lia.
From PV Require Import at4.Msg4 at4.Codec4 at4.Codec4Proofs at5.Msg5 at5.Codec5 at5.Codec5Proofs spec.Spec4 spec.Spec5 spec.Command4 spec.Command5 api.ApiTypes api.Api4 api.Api5.
Import ListNotations.

Open Scope Z_scope.
(* rhe_div n d is a nearest integer to n/d, the even one on a tie *)
Lemma rhe_div_spec n d : 0 < d ->
  let q := rhe_div n d in 2 * Z.abs (n - q * d) <= d /\ (2 * Z.abs (n - q * d) = d -> Z.even q = true).
Proof.
  intros Hd. unfold rhe_div. pose proof (Z.div_mod n d ltac:(lia)) as E. pose proof (Z.mod_pos_bound n d Hd) as B.
  set (q := n / d) in *. set (r := n mod d) in *.
  cbn zeta. destruct (Z.ltb_spec (2 * r) d); [split; lia|]. destruct (Z.ltb_spec d (2 * r)); [split; lia|].
  (* a tie *)
  destruct (Z.even q) eqn:Ev; (split; [lia|intros _]); [exact Ev|now rewrite Z.even_add, Ev].
Qed.

(* dy_round m e s is the integer nearest to m * 2^e * s (half to even): for e < 0 in terms of
   the numerator m * s and denominator 2^-e.  round0 / round1 are s = 1 (degrees) / 10 (tenths) *)
Lemma dy_round_spec m e s : e < 0 ->
  let d := 2 ^ (- e) in let q := dy_round m e s in
  2 * Z.abs (m * s - q * d) <= d /\ (2 * Z.abs (m * s - q * d) = d -> Z.even q = true).
Proof.
  intros He. unfold dy_round. assert (0 <=? e = false) as -> by (apply Z.leb_gt; lia).
  apply rhe_div_spec. apply Z.pow_pos_nonneg; lia.
Qed.
Lemma dy_round_int m e s : 0 <= e -> dy_round m e s = m * 2 ^ e * s.
Proof. intros He. unfold dy_round. apply Z.leb_le in He. now rewrite He. Qed.

Lemma clip_range lo hi v : lo <= hi -> lo <= clip lo hi v <= hi.
Proof. unfold clip. lia. Qed.
Lemma clip_id lo hi v : lo <= v <= hi -> clip lo hi v = v.
Proof. unfold clip. lia. Qed.
Close Scope Z_scope.
Open Scope N_scope.

Definition mode_bit (l : list bool) (m : p_mode) : bool := nth (Z.to_nat (p_mode_ix m)) l false.
Definition fan_bit (l : list bool) (f : p_fan) : bool := nth (Z.to_nat (p_fan_ix f)) l false.

(* the elements of [l] picked by the bits [bs] are elements of [l] *)
Lemma picked_miss {A} (e : A -> bool) : forall l bs,
  existsb e l = false -> existsb e (map fst (filter snd (combine l bs))) = false.
Proof.
  induction l as [|a l IH]; intros [|[|] bs] H; try reflexivity;
    cbn in *; apply orb_false_elim in H as [Ha H]; rewrite ?Ha; now apply IH.
Qed.

(* [x], at position [i] the only element of [l] with [e], is picked iff bit [i] is set *)
Lemma picked_nth {A} (e : A -> bool) x : forall i l bs,
  nth_error l i = Some x -> e x = true -> existsb e (firstn i l) = false -> existsb e (skipn (S i) l) = false ->
  existsb e (map fst (filter snd (combine l bs))) = nth i bs false.
Proof.
  induction i as [|i IH]; intros [|a l] [|[|] bs] Hx Ex H1 H2; try discriminate Hx; try reflexivity; cbn in *.
  - injection Hx as ->. now rewrite Ex.
  - now apply picked_miss.
  - apply orb_false_elim in H1 as [-> H1]. now apply IH.
  - apply orb_false_elim in H1 as [_ H1]. now apply IH.
Qed.

(* all_modes, all_fans4 and all_fans5 list the values in the order of their index *)
Lemma modes_membership (l : list bool) m :
  existsb (mode_eqb m) (map fst (filter snd (combine all_modes l))) = mode_bit l m.
Proof. destruct m; eapply picked_nth; reflexivity. Qed.

Lemma fan_bit_ia4 l : length l = 7%nat -> fan_bit l PF_IntelligentAuto = false.
Proof. intros H. apply nth_overflow. now rewrite H. Qed.

Lemma fans_membership4 (l : list bool) f : length l = 7%nat ->
  existsb (fan_eqb f) (map fst (filter snd (combine all_fans4 l))) = fan_bit l f.
Proof.
  intros H. destruct f; try (eapply picked_nth; reflexivity).
  rewrite (fan_bit_ia4 l H). now apply picked_miss.
Qed.

Lemma fans_membership5 (l : list bool) f :
  existsb (fan_eqb f) (map fst (filter snd (combine all_fans5 l))) = fan_bit l f.
Proof. destruct f; eapply picked_nth; reflexivity. Qed.

(* what the decoders guarantee about a stored ability, and the protocol's numbering *)
Definition wf_ac4 (a : ac4) : Prop :=
  length (ab_modes (a4_ability a)) = 5%nat /\ length (ab_fans (a4_ability a)) = 7%nat /\ a4_id a < 64 /\
  ab_min (a4_ability a) <= ab_max (a4_ability a) /\ ab_max (a4_ability a) < 64.

Definition reads_ac4 (m : msg4) (s : sac_ctrl) : Prop :=
  exists b1 b2 b3, enc4 m = Some [b1; b2; b3; 0] /\ size4 m = Some 4%nat /\ read_ac_ctrl b1 b2 b3 = s.

Definition mode_reading (m : p_mode) : amode :=
  match m with PM_Auto => AMS_Auto | PM_Heat => AMS_Heat | PM_Dry => AMS_Dry | PM_Fan => AMS_Fan | PM_Cool => AMS_Cool end.
Definition fan_reading (f : p_fan) : option afan :=
  match f with PF_Auto => Some AFS_Auto | PF_Quiet => Some AFS_Quiet | PF_Low => Some AFS_Low | PF_Medium => Some AFS_Medium
             | PF_High => Some AFS_High | PF_Powerful => Some AFS_Powerful | PF_Turbo => Some AFS_Turbo | PF_IntelligentAuto => None end.
Definition power_reading (p : p_power_ctl) : change onoff :=
  match p with PC_Toggle => Toggle | PC_Off => SetTo POff | PC_On => SetTo POn | PC_Away => SetTo PAway | PC_Sleep => SetTo PSleep end.

(* every AC control call ends in send_ac_ctrl4: one frame, which the document reads as the
   meanings of its four parts *)
Lemma send_ac_ctrl4_spec a pw mo fa sp :
  a4_id a < 64 -> match sp with AS_Value v => v < 64 | _ => True end ->
  exists m, send_ac_ctrl4 a pw mo fa sp = Sent m (ac_ctrl_policy4 (mkAC (a4_id a) pw mo fa sp)) /\
            reads_ac4 m (mkSAC (a4_id a) (mean_apower pw) (mean_amode mo) (mean_afan fa) (mean_asp sp)).
Proof.
  intros Hid Hsp. destruct (ac_ctrl_means (mkAC (a4_id a) pw mo fa sp)) as [b1 [b2 [b3 [E R]]]].
  { unfold dom_ac_ctrl. cbn [ac_number ac_sp]. apply andb_true_intro. split; [now apply N.ltb_lt|].
    destruct sp; try reflexivity. now apply N.ltb_lt. }
  eexists. split; [reflexivity|]. exists b1, b2, b3. cbn [enc4 size4]. auto.
Qed.

(* set_power: refused unless toggle / off / on; the frame changes the power and nothing else;
   only the toggle is sent without retries *)
Theorem set_power4_spec a p : wf_ac4 a ->
  match p with
  | PC_Away | PC_Sleep => set_power4 a p = Refused
  | _ => exists m, set_power4 a p = Sent m (match p with PC_Toggle => P_NonIdempotent | _ => P_Idempotent end) /\
                   reads_ac4 m (mkSAC (a4_id a) (power_reading p) Keep Keep Keep)
  end.
Proof. intros [_ [_ [Hid _]]]. destruct p; try reflexivity; exact (send_ac_ctrl4_spec a _ _ _ AS_None Hid I). Qed.

Theorem set_mode4_spec a m on : wf_ac4 a ->
  if mode_bit (ab_modes (a4_ability a)) m
  then exists msg, set_mode4 a m on = Sent msg P_Idempotent /\
                   reads_ac4 msg (mkSAC (a4_id a) (if on then SetTo POn else Keep) (SetTo (mode_reading m)) Keep Keep)
  else set_mode4 a m on = Refused.
Proof.
  intros [_ [_ [Hid _]]]. unfold set_mode4, supported_modes4. rewrite modes_membership.
  destruct (mode_bit _ m); [|reflexivity]. destruct on, m; exact (send_ac_ctrl4_spec a _ _ _ AS_None Hid I).
Qed.

Theorem set_fan4_spec a f : wf_ac4 a ->
  if fan_bit (ab_fans (a4_ability a)) f
  then exists msg fr, fan_reading f = Some fr /\ set_fan4 a f = Sent msg P_Idempotent /\
                      reads_ac4 msg (mkSAC (a4_id a) Keep Keep (SetTo fr) Keep)
  else set_fan4 a f = Refused.
Proof.
  intros [_ [Hf [Hid _]]]. unfold set_fan4, supported_fans4. rewrite (fans_membership4 _ f Hf).
  destruct (fan_bit _ f) eqn:B; [|reflexivity].
  (* INTELLIGENT_AUTO has no bit in the seven-element list, so B is false; for the seven others api_fan_ctl4
     computes to a code fc and the call is send_ac_ctrl4 with fc *)
  destruct f; cbn [api_fan_ctl4]; try (rewrite (fan_bit_ia4 _ Hf) in B; discriminate B);
    match goal with |- context [send_ac_ctrl4 a _ _ ?fc _] =>
      destruct (send_ac_ctrl4_spec a AP_Unchanged AM_Unchanged fc AS_None Hid I) as [msg S] end;
    exists msg; eexists; (split; [reflexivity|exact S]).
Qed.

(* set_target_temperature: rounded to whole degrees (half to even), clipped into the
   advertised [min, max], sent as an absolute set-point; nothing else changes *)
Theorem set_target4_spec a m e : wf_ac4 a ->
  let v := clip (Z.of_N (g4_min_target a)) (Z.of_N (g4_max_target a)) (round0 m e) in
  (Z.of_N (g4_min_target a) <= v <= Z.of_N (g4_max_target a))%Z /\
  exists msg, set_target4 a m e = Sent msg P_Idempotent /\
              reads_ac4 msg (mkSAC (a4_id a) Keep Keep Keep (SetTo (v * 10)%Z)).
Proof.
  intros [_ [_ [Hid [Hmm Hmax]]]] v.
  assert (Hv : (Z.of_N (g4_min_target a) <= v <= Z.of_N (g4_max_target a))%Z).
  { apply clip_range. unfold g4_min_target, g4_max_target. lia. }
  split; [exact Hv|]. rewrite <- (Z2N.id v) by lia.
  apply (send_ac_ctrl4_spec a AP_Unchanged AM_Unchanged AF_Unchanged (AS_Value (Z.to_N v)) Hid).
  unfold g4_max_target in Hv. lia.
Qed.

(* quick timers: the timer that is not being set goes out exactly as last reported *)
Theorem timer_pair4 a t s :
  exists on_ off_, timer_ctrl4 a t s = Sent (M_TimerCtrl [mkTD (a4_id a) on_ off_]) P_Idempotent /\
    match t with
    | PT_On => on_ = s /\ off_ = td_off (a4_timer a)
    | PT_Off => off_ = s /\ on_ = td_on (a4_timer a)
    end.
Proof. destruct t; eexists; eexists; (split; [reflexivity|split; reflexivity]). Qed.

Definition reads_group4 (m : msg4) (s : sgroup_ctrl) : Prop :=
  exists b1 b2 b3, enc4 m = Some [b1; b2; b3; 0] /\ size4 m = Some 4%nat /\ read_group_ctrl b1 b2 b3 = s.
Definition zpower_reading (p : p_zpower) : zone_power := match p with PZ_Off => ZOff | PZ_On => ZOn | PZ_Turbo => ZTurbo end.

Lemma send_group_ctrl4_spec z pw me st :
  z4_id z < 256 -> match st with GS_Damper v | GS_SetPoint v => v < 256 | _ => True end ->
  exists m, send_group_ctrl4 z pw me st = Sent m (group_ctrl_policy4 (mkGC (z4_id z) pw me st)) /\
            reads_group4 m (mkSGC (z4_id z) (mean_gsetting st) (mean_gmethod me) (mean_gpower pw)).
Proof.
  intros Hid Hst. destruct (group_ctrl_means (mkGC (z4_id z) pw me st)) as [b1 [b2 [b3 [E R]]]].
  { unfold dom_group_ctrl. cbn [gc_group gc_setting]. apply andb_true_intro. split; [now apply N.ltb_lt|].
    destruct st; try reflexivity; now apply N.ltb_lt. }
  eexists. split; [reflexivity|]. exists b1, b2, b3. cbn [enc4 size4]. auto.
Qed.

Theorem zone_set_power4_spec z p : z4_id z < 256 ->
  if match p with PZ_Turbo => gs_turbo (z4_status z) | _ => true end
  then exists msg, zone_set_power4 z p = Sent msg P_Idempotent /\
                   reads_group4 msg (mkSGC (z4_id z) Keep Keep (SetTo (zpower_reading p)))
  else zone_set_power4 z p = Refused.
Proof.
  intros Hid. unfold zone_set_power4, gz4_supported_power.
  destruct p; destruct (gs_turbo (z4_status z)); try reflexivity; exact (send_group_ctrl4_spec z _ _ GS_None Hid I).
Qed.

Theorem zone_set_damper4_spec z p : z4_id z < 256 ->
  if ((p <? 0) || (100 <? p))%Z then zone_set_damper4 z p = Refused
  else exists msg, zone_set_damper4 z p = Sent msg P_Idempotent /\
                   reads_group4 msg (mkSGC (z4_id z) (SetTo (Percent (Z.to_N p))) (SetTo ByPercentage) Keep).
Proof.
  intros Hid. unfold zone_set_damper4. destruct ((p <? 0) || (100 <? p))%Z eqn:R; [reflexivity|].
  apply orb_false_iff in R as [R1 R2]. apply Z.ltb_ge in R1, R2.
  apply (send_group_ctrl4_spec z GP_Unchanged GM_Damper (GS_Damper (Z.to_N p)) Hid). lia.
Qed.

Theorem zone_set_target4_spec z m e : z4_id z < 256 ->
  if gs_sensor (z4_status z)
  then (0 <= round0 m e < 256)%Z ->
       exists msg, zone_set_target4 z m e = Sent msg P_Idempotent /\
                   reads_group4 msg (mkSGC (z4_id z) (SetTo (SetPointDeg (round0 m e * 10))) (SetTo ByTemperature) Keep)
  else zone_set_target4 z m e = Refused.
Proof.
  intros Hid. unfold zone_set_target4, gz4_has_sensor. destruct (gs_sensor (z4_status z)); [|reflexivity].
  intros Hr. assert ((0 <=? round0 m e)%Z && (round0 m e <? 256)%Z = true) as ->.
  { apply andb_true_intro. split; [apply Z.leb_le|apply Z.ltb_lt]; lia. }
  pose proof (send_group_ctrl4_spec z GP_Unchanged GM_Temperature (GS_SetPoint (Z.to_N (round0 m e))) Hid) as S.
  cbn [mean_gsetting] in S. rewrite Z2N.id in S by lia. apply S. lia.
Qed.

Lemma enc_list_single {A} (f : A -> option (list N)) a r : f a = Some r -> enc_list f [a] = Some r.
Proof. intros H. unfold enc_list. cbn. rewrite H. cbn. now rewrite app_nil_r. Qed.

(* the sub-header of a one-record control message: sub-type, no normal data, record size, count 1 *)
Definition c0_one (id : N) (rl : N) : list N := [id; 0; 0; 0; 0; rl; 0; 1].

Definition reads_ac5 (m : msg5) (s : sac5_ctrl) : Prop :=
  exists b1 b2 b3 b4, enc5 m = Some (c0_one 0x22 4 ++ [b1; b2; b3; b4]) /\ size5 m = Some 12%nat /\
                      read_ac5_ctrl b1 b2 b3 b4 = s.
Definition reads_zone5 (m : msg5) (s : szone_ctrl) : Prop :=
  exists b1 b2 b3, enc5 m = Some (c0_one 0x20 4 ++ [b1; b2; b3; 0]) /\ size5 m = Some 12%nat /\
                   read_zone_ctrl b1 b2 b3 = s.
Definition wf_ac5 (a : ac5) : Prop :=
  length (ab5_modes (a5_ability a)) = 5%nat /\ length (ab5_fans (a5_ability a)) = 8%nat /\ a5_id a < 16.

Lemma send_ac_ctrl5_spec a pw mo fa sp :
  a5_id a < 16 -> match sp with Some d => (100 <= d <= 355)%Z | None => True end ->
  exists m, send_ac_ctrl5 a pw mo fa sp = Sent m (ac_ctrl_policy5 (mkA5C (a5_id a) pw mo fa sp)) /\
            reads_ac5 m (mkSAC5 (a5_id a) (mean_a5power pw) (mean_amode mo) (mean_a5fan fa) (mean_a5sp sp)).
Proof.
  intros Hid Hsp. destruct (ac5_ctrl_means (mkA5C (a5_id a) pw mo fa sp)) as [b1 [b2 [b3 [b4 [E R]]]]].
  { unfold dom_ac5_ctrl. cbn [a5c_number a5c_sp]. apply andb_true_intro. split; [now apply N.ltb_lt|].
    destruct sp; [|reflexivity]. apply andb_true_intro. split; apply Z.leb_le; lia. }
  eexists. split; [reflexivity|]. exists b1, b2, b3, b4.
  cbn [enc5 size5 c0_size length]. unfold enc_c0, c0_parts. rewrite (enc_list_single _ _ _ E). cbn. auto.
Qed.

Definition fan_reading5 (f : p_fan) : fan5 :=
  match f with PF_Auto => F5 AFS_Auto | PF_Quiet => F5 AFS_Quiet | PF_Low => F5 AFS_Low | PF_Medium => F5 AFS_Medium
             | PF_High => F5 AFS_High | PF_Powerful => F5 AFS_Powerful | PF_Turbo => F5 AFS_Turbo
             | PF_IntelligentAuto => F5IntelligentAuto end.

Theorem set_power5_spec a p : wf_ac5 a ->
  exists m, set_power5 a p = Sent m (match p with PC_Toggle => P_NonIdempotent | _ => P_Idempotent end) /\
            reads_ac5 m (mkSAC5 (a5_id a) (power_reading p) Keep Keep Keep).
Proof.
  intros [_ [_ Hid]]. destruct p; exact (send_ac_ctrl5_spec a _ _ _ None Hid I).
Qed.

Theorem set_mode5_spec a m on : wf_ac5 a ->
  if mode_bit (ab5_modes (a5_ability a)) m
  then exists msg, set_mode5 a m on = Sent msg P_Idempotent /\
                   reads_ac5 msg (mkSAC5 (a5_id a) (if on then SetTo POn else Keep) (SetTo (mode_reading m)) Keep Keep)
  else set_mode5 a m on = Refused.
Proof.
  intros [_ [_ Hid]]. unfold set_mode5, supported_modes5. rewrite modes_membership.
  destruct (mode_bit _ m); [|reflexivity].
  destruct on, m; exact (send_ac_ctrl5_spec a _ _ _ None Hid I).
Qed.

Theorem set_fan5_spec a f : wf_ac5 a ->
  if fan_bit (ab5_fans (a5_ability a)) f
  then exists msg, set_fan5 a f = Sent msg P_Idempotent /\
                   reads_ac5 msg (mkSAC5 (a5_id a) Keep Keep (SetTo (fan_reading5 f)) Keep)
  else set_fan5 a f = Refused.
Proof.
  intros [_ [_ Hid]]. unfold set_fan5, supported_fans5. rewrite fans_membership5.
  destruct (fan_bit _ f); [|reflexivity].
  destruct f; exact (send_ac_ctrl5_spec a _ _ _ None Hid I).
Qed.

(* set_target_temperature: rounded to 0.1 degC (half to even), clipped into the limits of the
   current mode; the limits must be what the protocol can carry (10.0 .. 35.5 degC) *)
Theorem set_target5_spec a m e : wf_ac5 a ->
  (10 <= g5_min_target a)%N -> (g5_min_target a <= g5_max_target a)%N -> (g5_max_target a <= 35)%N ->
  let v := clip (Z.of_N (g5_min_target a) * 10) (Z.of_N (g5_max_target a) * 10) (round1 m e) in
  (Z.of_N (g5_min_target a) * 10 <= v <= Z.of_N (g5_max_target a) * 10)%Z /\
  exists msg, set_target5 a m e = Sent msg P_Idempotent /\
              reads_ac5 msg (mkSAC5 (a5_id a) Keep Keep Keep (SetTo v)).
Proof.
  intros [_ [_ Hid]] H10 Hmm H35 v.
  assert (Hv : (Z.of_N (g5_min_target a) * 10 <= v <= Z.of_N (g5_max_target a) * 10)%Z) by (apply clip_range; lia).
  split; [exact Hv|]. apply (send_ac_ctrl5_spec a A5P_Unchanged AM_Unchanged A5F_Unchanged (Some v) Hid). lia.
Qed.

Theorem timer_pair5 a t s :
  exists on_ off_, timer_ctrl5 a t s = Sent (M5_Ctl (C_TimerCtrl [mkTD (a5_id a) on_ off_])) P_Idempotent /\
    match t with
    | PT_On => on_ = s /\ off_ = td_off (a5_timer a)
    | PT_Off => off_ = s /\ on_ = td_on (a5_timer a)
    end.
Proof. destruct t; eexists; eexists; (split; [reflexivity|split; reflexivity]). Qed.

Lemma send_zone_ctrl5_spec z pw st :
  z5_id z < 64 -> match st with ZS_Damper p => p < 256 | ZS_SetPoint d => (100 <= d <= 355)%Z | _ => True end ->
  exists m, send_zone_ctrl5 z pw st = Sent m (zone_ctrl_policy5 (mkZC (z5_id z) pw st)) /\
            reads_zone5 m (mkSZC (z5_id z) (mean_zsetting st) Keep (mean_zpower pw)).
Proof.
  intros Hid Hs. destruct (zone_ctrl_means (mkZC (z5_id z) pw st)) as [b1 [b2 [b3 [E R]]]].
  { unfold dom_zone_ctrl64, dom_zone_ctrl. cbn [zc_zone zc_setting].
    assert (z5_id z <? 256 = true) as -> by (apply N.ltb_lt; lia).
    assert (z5_id z <? 64 = true) as -> by (now apply N.ltb_lt). rewrite andb_true_r. cbn [andb].
    destruct st; try reflexivity; [now apply N.ltb_lt|apply andb_true_intro; split; apply Z.leb_le; lia]. }
  eexists. split; [reflexivity|]. exists b1, b2, b3.
  cbn [enc5 size5 c0_size length]. unfold enc_c0, c0_parts. rewrite (enc_list_single _ _ _ E). cbn. auto.
Qed.

Theorem zone_set_power5_spec z p : z5_id z < 64 ->
  exists msg, zone_set_power5 z p = Sent msg P_Idempotent /\
              reads_zone5 msg (mkSZC (z5_id z) Keep Keep (SetTo (zpower_reading p))).
Proof.
  intros Hid. destruct p; exact (send_zone_ctrl5_spec z _ ZS_None Hid I).
Qed.

Theorem zone_set_damper5_spec z p : z5_id z < 64 ->
  if ((p <? 0) || (100 <? p))%Z then zone_set_damper5 z p = Refused
  else exists msg, zone_set_damper5 z p = Sent msg P_Idempotent /\
                   reads_zone5 msg (mkSZC (z5_id z) (SetTo (Percent (Z.to_N p))) Keep Keep).
Proof.
  intros Hid. unfold zone_set_damper5. destruct ((p <? 0) || (100 <? p))%Z eqn:R; [reflexivity|].
  apply orb_false_iff in R as [R1 R2]. apply Z.ltb_ge in R1, R2.
  apply (send_zone_ctrl5_spec z ZP_Unchanged (ZS_Damper (Z.to_N p)) Hid). lia.
Qed.

Theorem zone_set_target5_spec z m e : z5_id z < 64 ->
  if zs_sensor (z5_status z)
  then (100 <= round1 m e <= 355)%Z ->
       exists msg, zone_set_target5 z m e = Sent msg P_Idempotent /\
                   reads_zone5 msg (mkSZC (z5_id z) (SetTo (SetPointDeg (round1 m e))) Keep Keep)
  else zone_set_target5 z m e = Refused.
Proof.
  intros Hid. unfold zone_set_target5, gz5_has_sensor. destruct (zs_sensor (z5_status z)); [|reflexivity].
  intros Hr. assert ((100 <=? round1 m e)%Z && (round1 m e <? 356)%Z = true) as ->.
  { apply andb_true_intro. split; [apply Z.leb_le|apply Z.ltb_lt]; lia. }
  apply (send_zone_ctrl5_spec z ZP_Unchanged (ZS_SetPoint (round1 m e)) Hid). lia.
Qed.

(* selected mode: the automatic variants read AUTO; active mode: the concrete mode in effect *)
Definition auto_variant (m : amode) : bool := match m with AMS_Auto | AMS_AutoHeat | AMS_AutoCool => true | _ => false end.
Definition mode_in_effect (m : amode) : p_mode :=
  match m with AMS_Auto => PM_Auto | AMS_Heat | AMS_AutoHeat => PM_Heat | AMS_Dry => PM_Dry | AMS_Fan => PM_Fan
             | AMS_Cool | AMS_AutoCool => PM_Cool end.
Lemma mode_tables m :
  selected_mode4 m = (if auto_variant m then PM_Auto else mode_in_effect m) /\ active_mode4 m = mode_in_effect m.
Proof. destruct m; split; reflexivity. Qed.

(* AirTouch 5 fan speed: intelligent-auto variants read INTELLIGENT_AUTO when selected and
   the concrete speed when active; the plain speeds read themselves *)
Definition ia_variant (f : a5fan) : bool :=
  match f with A5FS_IAQuiet | A5FS_IALow | A5FS_IAMedium | A5FS_IAHigh | A5FS_IAPowerful | A5FS_IATurbo => true | _ => false end.
Definition speed_in_effect (f : a5fan) : p_fan :=
  match f with A5FS_Auto => PF_Auto | A5FS_Quiet | A5FS_IAQuiet => PF_Quiet | A5FS_Low | A5FS_IALow => PF_Low
             | A5FS_Medium | A5FS_IAMedium => PF_Medium | A5FS_High | A5FS_IAHigh => PF_High
             | A5FS_Powerful | A5FS_IAPowerful => PF_Powerful | A5FS_Turbo | A5FS_IATurbo => PF_Turbo end.
Lemma fan_tables5 f :
  selected_fan5 f = (if ia_variant f then PF_IntelligentAuto else speed_in_effect f) /\ active_fan5 f = speed_in_effect f.
Proof. destruct f; split; reflexivity. Qed.

(* limits follow the current mode *)
Lemma limits5 a :
  match a5s_mode (a5_status a) with
  | AMS_Heat => g5_min_target a = ab5_min_heat (a5_ability a) /\ g5_max_target a = ab5_max_heat (a5_ability a)
  | AMS_Cool => g5_min_target a = ab5_min_cool (a5_ability a) /\ g5_max_target a = ab5_max_cool (a5_ability a)
  | _ => g5_min_target a = N.min (ab5_min_heat (a5_ability a)) (ab5_min_cool (a5_ability a)) /\
         g5_max_target a = N.max (ab5_max_heat (a5_ability a)) (ab5_max_cool (a5_ability a))
  end.
Proof. unfold g5_min_target, g5_max_target. destruct (a5s_mode (a5_status a)); split; reflexivity. Qed.

(* error details exactly while an error code is present *)
Lemma none_iff_zero {A} n (x : A) : (if n =? 0 then None else Some x) = None <-> n = 0.
Proof. destruct (N.eqb_spec n 0); split; intros; congruence. Qed.
