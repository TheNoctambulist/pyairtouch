(* TeardownProofs.v — the tear-down model (Teardown.v): its reachable states form a five-state automaton, from which
   "one connection at most", "never wedged" and the conditions of a dial are read off; the acceptor that judges network
   traces accepts every run of the model. *)
From Coq Require Import List Arith Lia.
From PV Require Import sock.Teardown.
Import ListNotations.

(* The states the client can be in form a five-state automaton: closed, backing off (a retry armed and nothing else),
   dialling, connected, tearing a connection down.  t_owe and t_dials are free; t_retry is free except where shown. *)
Inductive TdInv : tstate -> Prop :=
| Closed w d : TdInv (mkT false false false false w 0 0 d)
| Backoff w r d : TdInv (mkT true false false false w 0 (S r) d)
| Dialling w r d : TdInv (mkT true false true false w 0 r d)
| Up w r d : TdInv (mkT true true false false w 1 r d)
| Tearing w r d : TdInv (mkT true true false true w 0 r d).

Lemma tdinv_step : forall s e, TdInv s -> TdInv (tstep s e).
Proof.
  intros s e H. destruct H as [w d|w r d|w r d|w r d|w r d], e as [| | |owe| |]; cbn; try constructor.
  (* what is left reads t_retry or t_owe: a retry firing while dialling / connected / tearing down, and the end of a
     tear-down *)
  - destruct r; constructor.
  - destruct r; constructor.
  - destruct w; constructor.
  - destruct r; constructor.
Qed.

Lemma trun_snoc evs e : trun (evs ++ [e]) = tstep (trun evs) e.
Proof. unfold trun. now rewrite fold_left_app. Qed.

Lemma tdinv_run : forall evs, TdInv (trun evs).
Proof.
  induction evs as [|e evs IH] using rev_ind; [constructor|]. rewrite trun_snoc. apply tdinv_step, IH.
Qed.

(* at most one connection is open at any time, whatever fires inside a tear-down *)
Theorem teardown_single : forall evs, t_live (trun evs) <= 1.
Proof. intros evs. destruct (tdinv_run evs); cbn; lia. Qed.

(* never wedged: once opened, the client is connected, or an attempt is in flight, or a retry is armed *)
Theorem teardown_never_wedged : forall evs, t_open (trun evs) = true ->
  t_conn (trun evs) = true \/ t_cing (trun evs) = true \/ 0 < t_retry (trun evs).
Proof. intros evs. destruct (tdinv_run evs); cbn; auto using Nat.lt_0_succ. Qed.

(* A step that starts a connection attempt: it starts from a state that is down, or ends a tear-down (so a retry
   that fires while connected, in particular inside a tear-down, starts nothing), and it leaves is_connected cleared
   and no connection open. *)
Lemma dial_step s e : TdInv s -> t_dials (tstep s e) <> t_dials s ->
  (t_conn s = false \/ (t_tear s = true /\ e = TTearDone)) /\
  t_conn (tstep s e) = false /\ t_live (tstep s e) = 0 /\ t_cing (tstep s e) = true.
Proof.
  intros H. destruct H as [w d|w r d|w r d|w r d|w r d], e as [| | |owe| |]; cbn; auto; try contradiction.
  - destruct r; cbn; auto; contradiction.
  - destruct r; cbn; auto; contradiction.
  - destruct w; cbn; auto.
  - destruct r; cbn; auto; contradiction.
Qed.

Theorem teardown_dial_only_when_down : forall evs e,
  t_dials (trun (evs ++ [e])) <> t_dials (trun evs) ->
  t_conn (trun evs) = false \/ (t_tear (trun evs) = true /\ e = TTearDone).
Proof. intros evs e. rewrite trun_snoc. intros H. exact (proj1 (dial_step _ e (tdinv_run evs) H)). Qed.

Theorem teardown_after_dial_state : forall evs e,
  t_dials (trun (evs ++ [e])) <> t_dials (trun evs) ->
  t_conn (trun (evs ++ [e])) = false /\ t_live (trun (evs ++ [e])) = 0 /\ t_cing (trun (evs ++ [e])) = true.
Proof. intros evs e. rewrite trun_snoc. intros H. exact (proj2 (dial_step _ e (tdinv_run evs) H)). Qed.

(* the order inside _disconnect() matters: with is_connected cleared before the wait, a retry that fires inside the
   tear-down opens a connection which the resumed _disconnect() forgets - two connections end up open *)
Definition trun_early (evs : list tev) : tstate := fold_left tstep_early evs tinit.

Theorem teardown_order_matters :
  t_live (trun_early [TOpen; TDialOk; TLost true; TTearDone; TDialOk; TLost false; TRetryFire; TDialOk; TTearDone; TDialOk]) = 2
  /\ t_live (trun [TOpen; TDialOk; TLost true; TTearDone; TDialOk; TLost false; TRetryFire; TDialOk; TTearDone; TDialOk]) = 1.
Proof. split; vm_compute; reflexivity. Qed.

(* non-vacuity: the history of the witness reaches a state with an armed retry while connected *)
Example teardown_armed_while_connected :
  let s := trun [TOpen; TDialOk; TLost true; TTearDone; TDialOk] in t_conn s = true /\ t_retry s = 1 /\ t_live s = 1.
Proof. vm_compute; auto. Qed.

(* the acceptor's states that can be reached: down, dialling, up, tearing down *)
Inductive AInv : astate -> Prop :=
| ADown : AInv (mkA false false false 0)
| ADialling : AInv (mkA false true false 0)
| AUp : AInv (mkA true false false 1)
| ATearing : AInv (mkA true false true 0).

Lemma ainv_step : forall a o a', AInv a -> astep a o = Some a' -> AInv a'.
Proof. intros a o a' H Hs. destruct H, o; cbn in Hs; try discriminate; injection Hs as <-; constructor. Qed.

Lemma ainv_run : forall os a a', AInv a -> arun a os = Some a' -> AInv a'.
Proof.
  induction os as [|o os IH]; cbn; intros a a' H Hr; [now injection Hr as <-|].
  destruct (astep a o) as [a1|] eqn:E; [|discriminate]. eapply IH; [eapply ainv_step; eauto|auto].
Qed.

(* whatever trace of observables the acceptor accepts: never two connections open *)
Theorem acceptor_single : forall os a', arun ainit os = Some a' -> a_live a' <= 1.
Proof. intros os a' Hr. destruct (ainv_run _ _ _ ADown Hr); cbn; lia. Qed.

Lemma eqb_S_self : forall d, Nat.eqb (S d) d = false.
Proof. intros d. apply Nat.eqb_neq. lia. Qed.

Lemma accept_step : forall s e, TdInv s -> arun (abs s) (project1 s e) = Some (abs (tstep s e)).
Proof.
  intros s e H. unfold project1, dialled.
  destruct H as [w d|w r d|w r d|w r d|w r d], e as [| | |owe| |]; cbn -[Nat.eqb];
    rewrite ?eqb_S_self, ?Nat.eqb_refl; try reflexivity.
  - destruct r; cbn -[Nat.eqb]; now rewrite Nat.eqb_refl.
  - destruct r; cbn -[Nat.eqb]; now rewrite Nat.eqb_refl.
  - destruct w; cbn -[Nat.eqb]; now rewrite eqb_S_self.
  - destruct r; cbn -[Nat.eqb]; now rewrite Nat.eqb_refl.
Qed.

Lemma arun_app : forall os1 os2 a a1, arun a os1 = Some a1 -> arun a (os1 ++ os2) = arun a1 os2.
Proof.
  induction os1 as [|o os1 IH]; cbn; intros os2 a a1 H; [inversion H; auto|].
  destruct (astep a o); [eauto|discriminate].
Qed.

(* the acceptor is not stricter than the model: every run of the model is accepted, and ends in the model's state *)
Theorem acceptor_complete : forall evs s, TdInv s -> arun (abs s) (project s evs) = Some (abs (fold_left tstep evs s)).
Proof.
  induction evs as [|e evs IH]; cbn; intros s H; auto.
  rewrite (arun_app _ _ _ _ (accept_step s e H)). apply IH, tdinv_step, H.
Qed.

Corollary acceptor_accepts_model_runs : forall evs, arun ainit (project tinit evs) = Some (abs (trun evs)).
Proof. intros. apply (acceptor_complete evs tinit). constructor. Qed.
