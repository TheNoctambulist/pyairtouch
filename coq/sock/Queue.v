(* Queue.v — the ordinal ledger shared by the two queue models (Sock.v, Drain.v): the ordinals already written,
   followed by those still queued, are strictly increasing and lie below the next ordinal to be given out; at the
   end, the length bound of a purge (filter_length_le), which both capacity arguments use. *)
From Coq Require Import List Lia Sorted.
From PV Require Import sock.Sock.
Import ListNotations.

Definition qidx (q : list entry) : list nat := map e_idx q.

Definition ledger (wr : list nat) (q : list entry) (n : nat) : Prop :=
  StronglySorted lt (wr ++ qidx q ++ [n]).

Lemma sorted_cons x l : StronglySorted lt (x :: l) <-> StronglySorted lt l /\ Forall (lt x) l.
Proof. split; [apply StronglySorted_inv|intros [S F]; now constructor]. Qed.

Lemma sorted_app (a b : list nat) :
  StronglySorted lt (a ++ b) <->
  StronglySorted lt a /\ StronglySorted lt b /\ Forall (fun x => Forall (lt x) b) a.
Proof.
  induction a as [|h a IH]; cbn.
  - intuition constructor.
  - rewrite !sorted_cons, IH, Forall_app, Forall_cons_iff. tauto.
Qed.

Lemma sorted_nodup l : StronglySorted lt l -> NoDup l.
Proof.
  induction 1 as [|x l S IH F]; constructor; [|exact IH]. intros Hin. rewrite Forall_forall in F. specialize (F x Hin). lia.
Qed.

Lemma sorted_drop (a m b : list nat) : StronglySorted lt (a ++ m ++ b) -> StronglySorted lt (a ++ b).
Proof.
  rewrite !sorted_app. intros [Sa [[Sm [Sb Hmb]] Hab]]. repeat split; auto.
  revert Hab. apply Forall_impl. intros x Hx. now apply Forall_app in Hx.
Qed.

Lemma ledger_nil n : ledger [] [] n.
Proof. repeat constructor. Qed.

(* writing the head moves its ordinal from the queue to the written ones: the ledger does not notice *)
Lemma ledger_write wr e q n : ledger wr (e :: q) n <-> ledger (wr ++ [e_idx e]) q n.
Proof. unfold ledger. now rewrite <- app_assoc. Qed.

Lemma ledger_tail wr e q n : ledger wr (e :: q) n -> ledger wr q n.
Proof. exact (sorted_drop wr [e_idx e] _). Qed.

Lemma ledger_filter f q : forall wr n, ledger wr q n -> ledger wr (filter f q) n.
Proof.
  induction q as [|e q IH]; cbn; intros wr n H; [exact H|].
  destruct (f e); [apply ledger_write, IH, ledger_write, H|exact (IH _ _ (ledger_tail _ _ _ _ H))].
Qed.

Lemma ledger_lt wr q n : ledger wr q n -> Forall (fun x => x < n) (wr ++ qidx q).
Proof.
  unfold ledger. rewrite app_assoc, sorted_app. intros [_ [_ H]]. revert H. apply Forall_impl.
  intros x Hx. now apply Forall_inv in Hx.
Qed.

Lemma ledger_accept wr q n e : ledger wr q n -> e_idx e = n -> ledger wr (q ++ [e]) (S n).
Proof.
  intros H <-. pose proof (ledger_lt _ _ _ H) as Hlt. unfold ledger, qidx in *.
  rewrite map_app, <- app_assoc, 2 app_assoc. apply sorted_app. rewrite <- app_assoc.
  split; [exact H|split; [repeat constructor|]]. rewrite app_assoc. apply Forall_app. split; [|repeat constructor].
  revert Hlt. apply Forall_impl. intros x Hx. repeat constructor. lia.
Qed.

Lemma ledger_sorted wr q n : ledger wr q n -> StronglySorted lt wr.
Proof. intros H. now apply sorted_app in H. Qed.

Lemma filter_length_le {A} (f : A -> bool) l : length (filter f l) <= length l.
Proof. induction l as [|x l IH]; cbn; [lia|]. destruct (f x); cbn; lia. Qed.
