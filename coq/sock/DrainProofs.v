(* DrainProofs.v — the send queue under back-pressure (Drain.v): for every history of sends, clock advances, pauses /
   resumptions of the transport and (fault-free) link changes, frames are handed to the transport in acceptance order,
   each at most once, only before their lifetime has ended, only if accepted; and whenever the client is connected
   with no loop suspended and no flush owed, every accepted message has been transmitted or had expired.
   C01 / C02 / C16 under back-pressure. *)
From Coq Require Import ZArith List Bool Lia Sorting.Sorted.
From PV Require Import sock.Sock sock.Queue sock.Drain.
Import ListNotations.
Open Scope Z_scope.

Definition written (tr : list dev) : list nat :=
  flat_map (fun e => match e with DWrote i _ => [i] | _ => [] end) tr.

Lemma written_app a b : written (a ++ b) = written a ++ written b.
Proof. unfold written. now rewrite flat_map_app. Qed.

Lemma written_purge now q : written (purge_evs now q) = [].
Proof. unfold purge_evs. induction (filter _ q) as [|e l IH]; [reflexivity|exact IH]. Qed.

Lemma in_purge now q ev :
  In ev (purge_evs now q) <-> exists e, In e q /\ unexpired now e = false /\ ev = DDrop (e_idx e) now.
Proof.
  unfold purge_evs. rewrite in_map_iff. split; intros [e H]; exists e; rewrite filter_In, negb_true_iff in *; intuition.
Qed.

Record QInv (tr : list dev) (q : list entry) (n : nat) : Prop := {
  q_ledger : ledger (written tr) q n;
  q_wrote : forall i t, In (DWrote i t) tr -> exists x, In (DAccept i x) tr /\ t < x;
  q_done : forall i x, In (DAccept i x) tr ->
             (exists t, In (DWrote i t) tr) \/ (exists t, In (DDrop i t) tr /\ x <= t) \/
             (exists e, In e q /\ e_idx e = i /\ e_expiry e = x);
  q_acc : forall e, In e q -> In (DAccept (e_idx e) (e_expiry e)) tr }.

Lemma qinv_init : QInv [] [] 0.
Proof. constructor; cbn; try (intros; contradiction). apply ledger_nil. Qed.

(* Every operation extends the trace by evs and turns the queue q into q'.  The invariant is kept if the ledger is,
   each new write takes an unexpired entry of q, each entry of q stays queued or is written or is dropped at or after
   its expiry, and q' holds nothing but entries of q and the newly accepted ones. *)
Lemma qinv_ext q n tr q' n' evs :
  QInv tr q n ->
  ledger (written (tr ++ evs)) q' n' ->
  (forall i t, In (DWrote i t) evs -> exists e, In e q /\ e_idx e = i /\ t < e_expiry e) ->
  (forall e, In e q -> In e q' \/ (exists t, In (DWrote (e_idx e) t) evs) \/
                       (exists t, In (DDrop (e_idx e) t) evs /\ e_expiry e <= t)) ->
  (forall e, In e q' -> In e q \/ In (DAccept (e_idx e) (e_expiry e)) evs) ->
  (forall i x, In (DAccept i x) evs -> exists e, In e q' /\ e_idx e = i /\ e_expiry e = x) ->
  QInv (tr ++ evs) q' n'.
Proof.
  intros [L W D AC] L' Hw Hq Hq' Ha. constructor; [exact L'| | |].
  - intros i t Hi. apply in_app_or in Hi as [Hi|Hi].
    + destruct (W i t Hi) as [x [Hx Hlt]]. exists x. split; [apply in_or_app; now left|exact Hlt].
    + destruct (Hw i t Hi) as [e [He [<- Hlt]]]. exists (e_expiry e). split; [apply in_or_app; left; now apply AC|exact Hlt].
  - intros i x Hi. apply in_app_or in Hi as [Hi|Hi].
    + destruct (D i x Hi) as [[t Ht]|[[t [Ht Hle]]|[e [He [<- <-]]]]].
      * left. exists t. apply in_or_app. now left.
      * right. left. exists t. split; [apply in_or_app; now left|exact Hle].
      * destruct (Hq e He) as [H|[[t Ht]|[t [Ht Hle]]]].
        -- right. right. now exists e.
        -- left. exists t. apply in_or_app. now right.
        -- right. left. exists t. split; [apply in_or_app; now right|exact Hle].
    + right. right. exact (Ha i x Hi).
  - intros e He. apply in_or_app. destruct (Hq' e He) as [H|H]; [left; now apply AC|now right].
Qed.

(* the head leaves the queue: handed to the transport, or dropped as expired *)
Lemma qinv_head e q n tr now : QInv tr (e :: q) n -> QInv (tr ++ [ev_of now e]) q n.
Proof.
  intros I. pose proof (q_ledger _ _ _ I) as L. unfold ev_of. apply (qinv_ext _ _ _ _ _ _ I).
  - rewrite written_app. destruct (unexpired now e); cbn; [now apply ledger_write|rewrite app_nil_r].
    exact (ledger_tail _ _ _ _ L).
  - intros i t Hi. exists e. destruct (unexpired now e) eqn:U; destruct Hi as [Hi|[]]; [|discriminate].
    injection Hi as <- <-. unfold unexpired in U. repeat split; [now left|lia].
  - intros e0 [<-|He]; [right|now left]. destruct (unexpired now e) eqn:U; [left|right]; exists now; [now left|].
    unfold unexpired in U. split; [now left|lia].
  - intros e0 He. left. now right.
  - intros i x Hi. destruct (unexpired now e), Hi as [Hi|[]]; discriminate.
Qed.

Lemma qinv_purge now q n tr : QInv tr q n -> QInv (tr ++ purge_evs now q) (filter (unexpired now) q) n.
Proof.
  intros I. apply (qinv_ext _ _ _ _ _ _ I).
  - rewrite written_app, written_purge, app_nil_r. apply ledger_filter, (q_ledger _ _ _ I).
  - intros i t Hi. apply in_purge in Hi as [e [_ [_ Hi]]]. discriminate.
  - intros e He. destruct (unexpired now e) eqn:U; [left; apply filter_In; now split|]. right. right. exists now.
    split; [apply in_purge; now exists e|]. unfold unexpired in U. lia.
  - intros e He. left. now apply filter_In in He.
  - intros i x Hi. apply in_purge in Hi as [e [_ [_ Hi]]]. discriminate.
Qed.

Lemma qinv_refused q n tr : QInv tr q n -> QInv (tr ++ [DRefused]) q n.
Proof.
  intros I. apply (qinv_ext _ _ _ _ _ _ I); auto.
  - rewrite written_app. cbn. rewrite app_nil_r. exact (q_ledger _ _ _ I).
  - intros i t [Hi|[]]. discriminate.
  - intros i x [Hi|[]]. discriminate.
Qed.

Lemma qinv_accept q n tr k cls pid r x :
  QInv tr q n -> QInv (tr ++ [DAccept n x]) (q ++ [mkEntry n k cls pid r x]) (S n).
Proof.
  intros I. apply (qinv_ext _ _ _ _ _ _ I).
  - rewrite written_app. cbn. rewrite app_nil_r. apply ledger_accept; [exact (q_ledger _ _ _ I)|reflexivity].
  - intros i t [Hi|[]]. discriminate.
  - intros e He. left. apply in_or_app. now left.
  - intros e He. apply in_app_or in He as [He|[<-|[]]]; [now left|right; now left].
  - intros i y [Hi|[]]. injection Hi as <- <-. eexists. split; [apply in_or_app; right; now left|now split].
Qed.

Record DInv (tr : list dev) (s : dstate) : Prop := {
  di_q : QInv tr (d_queue s) (d_nsend s);
  di_idle : d_conn s = true -> d_parked s = 0%nat -> d_owed s = false -> d_queue s = [];
  di_cap : (length (d_queue s) <= capacity)%nat }.

Lemma dinv_init c : DInv [] (dinit c).
Proof. constructor; cbn; [apply qinv_init|reflexivity|lia]. Qed.

Lemma dloop_cons bp now e q :
  dloop bp now (e :: q) =
  if unexpired now e && bp then ([ev_of now e], q, true)
  else let '(evs, rest, p) := dloop bp now q in (ev_of now e :: evs, rest, p).
Proof. unfold ev_of. cbn [dloop]. now destruct (unexpired now e), bp. Qed.

(* A loop started on a queue within capacity suspends only on a paused transport, and leaves a state that satisfies
   the invariant whatever its other fields are, provided a suspended loop is counted. *)
Lemma dloop_inv bp now q : forall n tr, QInv tr q n -> (length q <= capacity)%nat ->
  let '(evs, rest, p) := dloop bp now q in
  (bp = false -> p = false) /\
  forall c b k o, (p = true -> k <> 0%nat) -> DInv (tr ++ evs) (mkD c b k o rest now n).
Proof.
  induction q as [|e q IH]; intros n tr Q Cap.
  - cbn. rewrite app_nil_r. split; [reflexivity|]. intros c b k o _. constructor; cbn; [exact Q|reflexivity|lia].
  - rewrite dloop_cons. apply (qinv_head _ _ _ _ now) in Q. cbn in Cap. destruct (unexpired now e && bp) eqn:E.
    + apply andb_prop in E as [_ ->]. split; [discriminate|]. intros c b k o K.
      constructor; cbn; [exact Q|intros _ P; now destruct (K eq_refl)|lia].
    + specialize (IH _ _ Q ltac:(lia)). destruct (dloop bp now q) as [[evs rest] p]. now rewrite <- app_assoc in IH.
Qed.

Lemma dstep_inv s tr o s' evs : DInv tr s -> dstep s o = Some (s', evs) -> DInv (tr ++ evs) s'.
Proof.
  intros [Q Idle Cap] H. destruct o as [r life|dt|[|]| | | |]; cbn [dstep] in H.
  - (* send *)
    pose proof (qinv_purge (d_now s) _ _ _ Q) as Q1.
    pose proof (filter_length_le (unexpired (d_now s)) (d_queue s)) as Len.
    destruct (capacity <=? length (filter (unexpired (d_now s)) (d_queue s)))%nat eqn:Full.
    + injection H as <- <-. rewrite app_assoc. constructor; cbn.
      * now apply qinv_refused.
      * intros C P O. rewrite (Idle C P O). reflexivity.
      * lia.
    + apply Nat.leb_gt in Full.
      pose proof (qinv_accept _ _ _ 0%nat EncOk 0 r (d_now s + life) Q1) as Q2.
      destruct (d_conn s) eqn:C.
      * apply (dloop_inv (d_bp s) (d_now s)) in Q2; [|rewrite app_length; cbn; lia].
        destruct (dloop (d_bp s) (d_now s) _) as [[ev2 rest] p]. injection H as <- <-.
        rewrite <- !app_assoc in Q2. apply Q2. intros ->. lia.
      * injection H as <- <-. rewrite app_assoc. constructor; cbn.
        -- exact Q2.
        -- discriminate.
        -- rewrite app_length. cbn. lia.
  - (* clock *)
    destruct (dt <? 0); [discriminate|]. injection H as <- <-. rewrite app_nil_r. constructor; assumption.
  - (* transport pauses *)
    injection H as <- <-. rewrite app_nil_r. constructor; assumption.
  - (* transport resumes *)
    destruct (d_parked s) eqn:P.
    + injection H as <- <-. rewrite app_nil_r. constructor; cbn; assumption.
    + apply (dloop_inv false (d_now s)) in Q; [|exact Cap].
      destruct (dloop false (d_now s) (d_queue s)) as [[ev2 rest] p]. injection H as <- <-.
      destruct Q as [B Q]. apply Q. now rewrite (B eq_refl).
  - (* link up *)
    destruct (d_conn s) eqn:C; [discriminate|].
    apply (dloop_inv (d_bp s) (d_now s)) in Q; [|exact Cap].
    destruct (dloop (d_bp s) (d_now s) (d_queue s)) as [[ev2 rest] p]. injection H as <- <-. apply Q. now intros ->.
  - (* connected, notification running *)
    destruct (d_conn s) eqn:C; [discriminate|]. injection H as <- <-. rewrite app_nil_r.
    constructor; cbn; [exact Q|discriminate|exact Cap].
  - (* the flush of _connect *)
    destruct (d_owed s) eqn:O; [|discriminate].
    apply (dloop_inv (d_bp s) (d_now s)) in Q; [|exact Cap].
    destruct (dloop (d_bp s) (d_now s) (d_queue s)) as [[ev2 rest] p]. injection H as <- <-. apply Q. intros ->. lia.
  - (* link down *)
    destruct (d_owed s); [discriminate|]. destruct (d_parked s); [|discriminate]. injection H as <- <-. rewrite app_nil_r.
    constructor; cbn; try assumption. discriminate.
Qed.

Lemma drun_inv ops : forall s tr s' evs, DInv tr s -> drun s ops = Some (s', evs) -> DInv (tr ++ evs) s'.
Proof.
  induction ops as [|o r IH]; intros s tr s' evs I H; cbn in H.
  - injection H as <- <-. now rewrite app_nil_r.
  - destruct (dstep s o) as [[s1 e1]|] eqn:E; [|discriminate].
    destruct (drun s1 r) as [[s2 e2]|] eqn:R; [|discriminate]. injection H as <- <-.
    rewrite app_assoc. eapply IH; [|exact R]. eapply dstep_inv; eassumption.
Qed.

Theorem drain_order c ops s tr : drun (dinit c) ops = Some (s, tr) -> StronglySorted lt (written tr).
Proof. intros H. pose proof (drun_inv ops _ [] _ _ (dinv_init c) H) as [Q _ _]. exact (ledger_sorted _ _ _ (q_ledger _ _ _ Q)). Qed.

Theorem drain_once c ops s tr : drun (dinit c) ops = Some (s, tr) -> NoDup (written tr).
Proof. intros H. apply sorted_nodup. eapply drain_order; eassumption. Qed.

Theorem drain_expiry c ops s tr i t :
  drun (dinit c) ops = Some (s, tr) -> In (DWrote i t) tr -> exists x, In (DAccept i x) tr /\ t < x.
Proof. intros H. pose proof (drun_inv ops _ [] _ _ (dinv_init c) H) as [Q _ _]. exact (q_wrote _ _ _ Q i t). Qed.

Theorem drain_complete c ops s tr :
  drun (dinit c) ops = Some (s, tr) -> d_conn s = true -> d_parked s = 0%nat -> d_owed s = false ->
  forall i x, In (DAccept i x) tr -> (exists t, In (DWrote i t) tr) \/ (exists t, In (DDrop i t) tr /\ x <= t).
Proof.
  intros H C P O i x Hi. pose proof (drun_inv ops _ [] _ _ (dinv_init c) H) as [Q Idle _]. cbn in Q.
  destruct (q_done _ _ _ Q i x Hi) as [W|[D|[e [He _]]]]; [now left|now right|].
  rewrite (Idle C P O) in He. contradiction.
Qed.

Theorem drain_bound c ops s tr : drun (dinit c) ops = Some (s, tr) -> (length (d_queue s) <= capacity)%nat.
Proof. intros H. pose proof (drun_inv ops _ [] _ _ (dinv_init c) H) as [_ _ Cap]. exact Cap. Qed.

