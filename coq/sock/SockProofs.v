(* SockProofs.v — invariants and trace theorems about the socket model (Sock.v). *)
From Coq Require Import ZArith List Bool Lia.
From PV Require Import sock.Sock sock.Queue.
Import ListNotations.
Open Scope Z_scope.

Definition sendable (now : Z) (e : entry) : bool :=
  (now <? e_expiry e) && match e_cls e with EncOk => true | _ => false end.

Definition wrote_of (c : nat) (now : Z) (e : entry) : ev :=
  EWrote c (e_idx e) (e_k e) (e_pid e) now.

Definition requeue (e : entry) : list entry :=
  match e_retries e with O => [] | S _ => [dec_retries e] end.

Lemma drain_q_cons now c fw e q :
  drain_q now c fw (e :: q) =
  if sendable now e then
    if fw then ([EWFail c (e_idx e)], requeue e ++ q, true)
    else let '(evs, rest, f) := drain_q now c false q in (wrote_of c now e :: evs, rest, f)
  else drain_q now c fw q.
Proof.
  unfold sendable. cbn [drain_q]. rewrite Z.leb_antisym. destruct (now <? e_expiry e); [|reflexivity].
  now destruct (e_cls e).
Qed.

Lemma sendable_lt now e : sendable now e = true -> now < e_expiry e.
Proof. unfold sendable. lia. Qed.

Lemma drain_q_nofault now c q :
  drain_q now c false q = (map (wrote_of c now) (filter (sendable now) q), [], false).
Proof.
  induction q as [|e q IH]; [reflexivity|]. rewrite drain_q_cons. cbn [filter].
  destruct (sendable now e); now rewrite IH.
Qed.

Fixpoint widx (tr : list ev) : list nat :=
  match tr with
  | [] => []
  | EWrote _ i _ _ _ :: r => i :: widx r
  | _ :: r => widx r
  end.

Lemma widx_app a b : widx (a ++ b) = widx a ++ widx b.
Proof. induction a as [|x a IH]; cbn; [reflexivity|]. destruct x; cbn; rewrite ?IH; reflexivity. Qed.

(* attempts on ordinal i: successful or failed writes *)
Fixpoint att (i : nat) (tr : list ev) : nat :=
  match tr with
  | [] => 0
  | EWrote _ j _ _ _ :: r => (if Nat.eqb i j then 1 else 0) + att i r
  | EWFail _ j :: r => (if Nat.eqb i j then 1 else 0) + att i r
  | _ :: r => att i r
  end%nat.

Lemma att_app i a b : att i (a ++ b) = (att i a + att i b)%nat.
Proof. induction a as [|x a IH]; cbn; [reflexivity|]. destruct x; cbn; rewrite ?IH; lia. Qed.

(* what the queue may still spend on ordinal i *)
Fixpoint qbudget (i : nat) (q : list entry) : nat :=
  match q with
  | [] => 0
  | e :: r => (if Nat.eqb i (e_idx e) then S (e_retries e) else 0) + qbudget i r
  end%nat.

Lemma qbudget_app i a b : qbudget i (a ++ b) = (qbudget i a + qbudget i b)%nat.
Proof. induction a as [|x a IH]; cbn; [reflexivity|]. rewrite IH; lia. Qed.

Lemma qbudget_filter i f q : (qbudget i (filter f q) <= qbudget i q)%nat.
Proof. induction q as [|e q IH]; cbn; [lia|]. destruct (f e); cbn; lia. Qed.

(* the events the invariant J (below) reads: writes, failures, accepts *)
Definition relevant (e : ev) : bool :=
  match e with EWrote _ _ _ _ _ | EWFail _ _ | EAccept _ _ _ _ _ => true | _ => false end.
Definition quiet (evs : list ev) : bool := forallb (fun e => negb (relevant e)) evs.

Lemma quiet_widx evs : quiet evs = true -> widx evs = [].
Proof. induction evs as [|x l IH]; cbn; [reflexivity|]. destruct x; cbn; try discriminate; assumption. Qed.
Lemma quiet_att i evs : quiet evs = true -> att i evs = 0%nat.
Proof. induction evs as [|x l IH]; cbn; [reflexivity|]. destruct x; cbn; try discriminate; assumption. Qed.
Lemma quiet_app a b : quiet (a ++ b) = quiet a && quiet b.
Proof. apply forallb_app. Qed.
Lemma quiet_in evs e : quiet evs = true -> In e evs -> relevant e = false.
Proof. unfold quiet. rewrite forallb_forall. intros H Hin. apply H in Hin. now destruct (relevant e). Qed.

(* tr: the trace so far, q: the queue, n: the next ordinal.  Every queued entry and every write has its accept record;
   the attempts made on an ordinal plus what the queue may still spend on it stay within 1 + its retries; accepted
   ordinals lie below n, and ordinals >= n are untouched (no attempt, no budget: what J_accept needs of n itself). *)
Record J (tr : list ev) (q : list entry) (n : nat) : Prop := {
  j_ledger : ledger (widx tr) q n;
  j_acc : forall e, In e q ->
          exists r, In (EAccept (e_idx e) (e_k e) (e_pid e) r (e_expiry e)) tr;
  j_wrote : forall c i k pid t, In (EWrote c i k pid t) tr ->
            exists r exp, In (EAccept i k pid r exp) tr /\ t < exp;
  j_att : forall i k pid r exp, In (EAccept i k pid r exp) tr ->
          (att i tr + qbudget i q <= S r)%nat;
  j_accidx : forall i k pid r exp, In (EAccept i k pid r exp) tr -> (i < n)%nat;
  j_fresh : forall i, (n <= i)%nat -> att i tr = 0%nat /\ qbudget i q = 0%nat }.

Lemma J_init n : J [] [] n.
Proof. constructor; cbn; try (intros; contradiction); auto. apply ledger_nil. Qed.

(* Every move extends the trace by evs, turns the queue q into q' and the next ordinal n into n' (S n when evs accepts
   a send).  J is kept if the ledger is; each entry of q' is one of q, with a retry less perhaps, or is accepted in evs; each
   write in evs takes an unexpired entry of q; and, ordinal by ordinal, the attempts in evs plus the budget of q' are
   covered by the budget of q - for the ordinal accepted in evs, by 1 + its retries. *)
Lemma J_ext tr q n evs q' n' :
  J tr q n -> (n <= n')%nat ->
  ledger (widx (tr ++ evs)) q' n' ->
  (forall e, In e q' ->
     In e q \/ (exists e0, In e0 q /\ e = dec_retries e0) \/
     exists r, In (EAccept (e_idx e) (e_k e) (e_pid e) r (e_expiry e)) evs) ->
  (forall c i k pid t, In (EWrote c i k pid t) evs ->
     exists e, In e q /\ e_idx e = i /\ e_k e = k /\ e_pid e = pid /\ t < e_expiry e) ->
  (forall i k pid r ex, In (EAccept i k pid r ex) evs ->
     i = n /\ n' = S n /\ (att i evs + qbudget i q' <= S r)%nat) ->
  (forall i, i <> n \/ n' = n -> (att i evs + qbudget i q' <= qbudget i q)%nat) ->
  J (tr ++ evs) q' n'.
Proof.
  intros [Hl Ha Hw Ht Hi Hf] Hn Hl' Hq' Hwr Hacc Hb.
  assert (Ha' : forall e, In e q -> exists r, In (EAccept (e_idx e) (e_k e) (e_pid e) r (e_expiry e)) (tr ++ evs)).
  { intros e He. destruct (Ha e He) as [r Hr]. exists r. apply in_or_app. now left. }
  constructor; [exact Hl'| | | | |].
  - intros e He. destruct (Hq' e He) as [He0|[[e0 [He0 ->]]|[r Hr]]]; [auto|exact (Ha' e0 He0)|].
    exists r. apply in_or_app. now right.
  - intros c i k pid t Hin. apply in_app_or in Hin as [Hin|Hin].
    + destruct (Hw _ _ _ _ _ Hin) as [r [ex [A B]]]. exists r, ex. split; [apply in_or_app; now left|exact B].
    + destruct (Hwr _ _ _ _ _ Hin) as [e [He [<- [<- [<- Hlt]]]]]. destruct (Ha' e He) as [r Hr]. now exists r, (e_expiry e).
  - intros i k pid r ex Hin. rewrite att_app. apply in_app_or in Hin as [Hin|Hin].
    + specialize (Ht _ _ _ _ _ Hin). specialize (Hi _ _ _ _ _ Hin). specialize (Hb i). lia.
    + destruct (Hacc _ _ _ _ _ Hin) as [-> [_ H]]. destruct (Hf n (le_n _)). lia.
  - intros i k pid r ex Hin. apply in_app_or in Hin as [Hin|Hin]; [specialize (Hi _ _ _ _ _ Hin); lia|].
    destruct (Hacc _ _ _ _ _ Hin) as [-> [-> _]]. lia.
  - intros i Hi'. rewrite att_app. destruct (Hf i ltac:(lia)). specialize (Hb i). lia.
Qed.

(* the trace as it is, a weaker queue *)
Lemma J_weaken tr q n q' :
  J tr q n -> ledger (widx tr) q' n -> (forall e, In e q' -> In e q) ->
  (forall i, (qbudget i q' <= qbudget i q)%nat) -> J tr q' n.
Proof.
  intros HJ Hl Hin Hb. rewrite <- (app_nil_r tr). apply (J_ext _ _ _ _ _ _ HJ (le_n _)); try (intros; contradiction).
  - now rewrite app_nil_r.
  - intros e He. left. auto.
  - intros i _. apply Hb.
Qed.

Lemma J_quiet tr q n evs : J tr q n -> quiet evs = true -> J (tr ++ evs) q n.
Proof.
  intros HJ Hq. apply (J_ext _ _ _ _ _ _ HJ (le_n _)).
  - rewrite widx_app, (quiet_widx _ Hq), app_nil_r. apply HJ.
  - intros e He. now left.
  - intros c i k pid t Hin. now apply (quiet_in _ _ Hq) in Hin.
  - intros i k pid r ex Hin. now apply (quiet_in _ _ Hq) in Hin.
  - intros i _. now rewrite (quiet_att _ _ Hq).
Qed.

Lemma J_filter tr q n f : J tr q n -> J tr (filter f q) n.
Proof.
  intros HJ. apply (J_weaken _ _ _ _ HJ); [apply ledger_filter, HJ| |intros i; apply qbudget_filter].
  intros e He. now apply filter_In in He.
Qed.

Lemma J_tail tr e q n : J tr (e :: q) n -> J tr q n.
Proof.
  intros HJ. apply (J_weaken _ _ _ _ HJ); [exact (ledger_tail _ _ _ _ (j_ledger _ _ _ HJ))|now right|cbn; lia].
Qed.

Lemma J_nil tr q n : J tr q n -> J tr [] n.
Proof. induction q as [|e q IH]; eauto using J_tail. Qed.

Lemma J_write tr e q n c now : J tr (e :: q) n -> now < e_expiry e -> J (tr ++ [wrote_of c now e]) q n.
Proof.
  intros HJ Hnow. apply (J_ext _ _ _ _ _ _ HJ (le_n _)).
  - rewrite widx_app. apply ledger_write, HJ.
  - intros e0 He. left. now right.
  - intros c0 i k pid t [Hin|[]]. injection Hin as <- <- <- <- <-. exists e. split; [now left|auto].
  - intros i k pid r ex [Hin|[]]. discriminate.
  - intros i _. cbn. destruct (Nat.eqb i (e_idx e)); lia.
Qed.

Lemma J_fail tr e q n c : J tr (e :: q) n -> J (tr ++ [EWFail c (e_idx e)]) (requeue e ++ q) n.
Proof.
  intros HJ. apply (J_ext _ _ _ _ _ _ HJ (le_n _)).
  - rewrite widx_app, app_nil_r. unfold requeue.
    destruct (e_retries e); [exact (ledger_tail _ _ _ _ (j_ledger _ _ _ HJ))|apply HJ].
  - intros e0 He. apply in_app_or in He as [He|He]; [|left; now right].
    unfold requeue in He. destruct (e_retries e); [destruct He|]. destruct He as [<-|[]].
    right. left. exists e. split; [now left|auto].
  - intros c0 i k pid t [Hin|[]]. discriminate.
  - intros i k pid r ex [Hin|[]]. discriminate.
  - intros i _. unfold requeue. cbn. destruct (e_retries e) eqn:Hr; cbn; rewrite ?Hr; destruct (Nat.eqb i (e_idx e)); cbn; lia.
Qed.

Lemma J_drain now c q : forall tr n fw,
  J tr q n -> let '(evs, rest, _) := drain_q now c fw q in J (tr ++ evs) rest n.
Proof.
  induction q as [|e q IH]; intros tr n fw H; [cbn; now rewrite app_nil_r|].
  rewrite drain_q_cons. destruct (sendable now e) eqn:Hs; [|exact (IH _ _ _ (J_tail _ _ _ _ H))].
  destruct fw; [exact (J_fail _ _ _ _ c H)|].
  apply (J_write _ _ _ _ c now), (IH _ _ false) in H; [|exact (sendable_lt _ _ Hs)].
  destruct (drain_q now c false q) as [[evs rest] f]. now rewrite <- app_assoc in H.
Qed.

Lemma J_accept tr q n k cls pid r ex :
  J tr q n ->
  J (tr ++ [EAccept n k pid r ex]) (q ++ [mkEntry n k cls pid r ex]) (S n).
Proof.
  intros HJ. apply (J_ext _ _ _ _ _ _ HJ (le_S _ _ (le_n _))).
  - rewrite widx_app, app_nil_r. apply ledger_accept; [apply HJ|reflexivity].
  - intros e He. apply in_app_or in He as [He|[<-|[]]]; [now left|right; right; exists r; now left].
  - intros c i k0 pid0 t [Hin|[]]. discriminate.
  - intros i k0 pid0 r0 ex0 [Hin|[]]. injection Hin as <- _ _ <- _. repeat split.
    rewrite qbudget_app. cbn. rewrite Nat.eqb_refl. destruct (j_fresh _ _ _ HJ n (le_n _)). lia.
  - intros i [Hi|Hi]; [|lia]. rewrite qbudget_app. cbn. destruct (Nat.eqb_spec i n); [contradiction|lia].
Qed.

Lemma run_cons s o ops :
  run s (o :: ops) = (fst (run (fst (step s o)) ops), snd (step s o) :: snd (run (fst (step s o)) ops)).
Proof. cbn. destruct (step s o) as [s1 evs]. cbn. now destruct (run s1 ops). Qed.

Lemma trace_cons s o ops : trace s (o :: ops) = snd (step s o) ++ trace (fst (step s o)) ops.
Proof. unfold trace. now rewrite run_cons. Qed.

(* Every invariant of runs is shown through this one induction (of reachable states: from [init] with tr = []; of a
   closed client: from any closed state): P speaks of the trace so far and the state, ok of the stimuli admitted. *)
Lemma run_inv (P : list ev -> sstate -> Prop) (ok : op -> bool) :
  (forall tr s o, P tr s -> ok o = true -> P (tr ++ snd (step s o)) (fst (step s o))) ->
  forall ops tr s, P tr s -> forallb ok ops = true -> P (tr ++ trace s ops) (fst (run s ops)).
Proof.
  intros Hstep. induction ops as [|o ops IH]; intros tr s HP Hok.
  - unfold trace. cbn. now rewrite app_nil_r.
  - apply andb_prop in Hok as [Ho Hops]. rewrite trace_cons, run_cons, app_assoc. apply IH; auto.
Qed.

Lemma min_list_spec l : forall x,
  In (min_list x l) (x :: l) /\ forall y, In y (x :: l) -> min_list x l <= y.
Proof.
  induction l as [|z l IH]; intros x; cbn [min_list]; [split; [now left|intros y [<-|[]]; lia]|].
  destruct (IH (Z.min x z)) as [Hin Hle]. pose proof (Hle _ (or_introl eq_refl)). split.
  - destruct Hin as [E|Hin]; [|right; now right]. rewrite <- E.
    destruct (Z.min_spec x z) as [[_ ->]|[_ ->]]; [now left|right; now left].
  - intros y [<-|[<-|Hy]]; [lia|lia|]. apply Hle. now right.
Qed.

(* the three things an advance can do, with the ordering facts each guarantees *)
Lemma adv_cases s dt :
  (adv s dt = (set_now s (s_now s + dt), [ETime (s_now s + dt)]) /\
   (forall d, s_dial s = Some d -> s_now s + dt < d) /\
   (forall w, In w (s_sleeps s) -> s_now s + dt < w)) \/
  (exists d, s_dial s = Some d /\ d <= s_now s + dt /\ adv s dt = fire_dial s d /\
             (forall w, In w (s_sleeps s) -> d <= w)) \/
  (exists w, In w (s_sleeps s) /\ w <= s_now s + dt /\ adv s dt = wake s w /\
             (forall w', In w' (s_sleeps s) -> w <= w') /\ (forall d, s_dial s = Some d -> w < d)).
Proof.
  unfold adv. destruct (s_sleeps s) as [|x r].
  - destruct (s_dial s) as [d|]; [destruct (d <=? s_now s + dt) eqn:E|].
    + right; left. exists d. repeat split; auto; [lia|intros w []].
    + left. repeat split; [intros d0 [= <-]; lia|intros w []].
    + left. repeat split; [discriminate|intros w []].
  - destruct (min_list_spec r x) as [Hin Hle]. set (w := min_list x r) in *.
    destruct (s_dial s) as [d|].
    + destruct (d <=? w) eqn:Em; [destruct (d <=? s_now s + dt) eqn:E|destruct (w <=? s_now s + dt) eqn:E].
      * right; left. exists d. repeat split; auto; [lia|]. intros y Hy. apply Hle in Hy. lia.
      * left. repeat split; [intros d0 [= <-]; lia|intros y Hy; apply Hle in Hy; lia].
      * right; right. exists w. repeat split; auto; [lia|intros d0 [= <-]; lia].
      * left. repeat split; [intros d0 [= <-]; lia|intros y Hy; apply Hle in Hy; lia].
    + destruct (w <=? s_now s + dt) eqn:E.
      * right; right. exists w. repeat split; auto; [lia|discriminate].
      * left. repeat split; [discriminate|intros y Hy; apply Hle in Hy; lia].
Qed.

(* What a stimulus can do, by building block: nothing; a frame is delivered; the environment's knobs are set (ONet,
   OFailNextWrite); the link is lost (EOF, garbage, reset: closed by the client; peer reset: lost); open; close; send;
   the clock advances.  Every invariant is carried over [step] through this case analysis.  ok says which stimuli are
   admitted; it is handed on where a client needs it: valid_op bounds the latency of ONet and the dt of OAdv for the
   time invariant, not_open_op rules out OOpen for the closed client.
   The premise for the knobs serves two stimuli, hence a, l and fw arbitrary: ONet a l sets a and l (an admitted
   stimulus: the right disjunct) and leaves fw = s_failw s; OFailNextWrite leaves a = s_accept s and l = s_lat s (the
   left disjunct) and sets fw = true. *)
Lemma step_elim (ok : op -> bool) (P : sstate -> sstate * list ev -> Prop) :
  (forall s, P s (s, [])) ->
  (forall s j, s_link s <> None -> P s (s, [EDeliver j])) ->
  (forall s a l fw, l = s_lat s \/ ok (ONet a l) = true ->
     P s (mkS (s_open s) (s_link s) (s_queue s) (s_dial s) (s_sleeps s) (s_now s) (s_pid s)
              (s_ncid s) (s_nsend s) a l fw, [])) ->
  (forall s c cl, s_link s = Some c -> cl = EClose c \/ cl = ELost c ->
     P s (go_down s (s_queue s) (s_failw s) [cl])) ->
  (forall s, ok OOpen = true -> s_open s = false ->
     P s (mkS true (s_link s) (s_queue s) (Some (s_now s + s_lat s)) (s_sleeps s) (s_now s) (s_pid s)
              (s_ncid s) (s_nsend s) (s_accept s) (s_lat s) (s_failw s), [EDial])) ->
  (forall s, s_open s = true ->
     P s (mkS false None [] None [] (s_now s) (s_pid s) (s_ncid s) (s_nsend s) (s_accept s) (s_lat s) (s_failw s),
          (match s_link s with Some c => [EClose c] | None => [] end) ++ [ENotify false])) ->
  (forall s k cls r life, P s (send s k cls r life)) ->
  (forall s dt, ok (OAdv dt) = true -> P s (adv s dt)) ->
  forall s o, ok o = true -> P s (step s o).
Proof.
  intros Hidle Hdeliver Henv Hlose Hopen Hclose Hsend Hadv s o Hok.
  assert (Hdown : forall cl : nat -> ev, (forall c, cl c = EClose c \/ cl c = ELost c) ->
            P s match s_link s with Some c => go_down s (s_queue s) (s_failw s) [cl c] | None => (s, []) end).
  { intros cl Hcl. destruct (s_link s) as [c|] eqn:Hl; [apply (Hlose s c); auto|apply Hidle]. }
  destruct o; cbn [step].
  - (* OOpen *) destruct (s_open s) eqn:Ho; auto.
  - (* OClose *) destruct (s_open s) eqn:Ho; auto.
  - (* OSend *) apply Hsend.
  - (* OAdv *) apply Hadv, Hok.
  - (* ONet *) apply Henv. now right.
  - (* OPeerEof *) apply Hdown. now left.
  - (* OPeerRst *) apply Hdown. now right.
  - (* OPeerFrame *) destruct (s_link s) eqn:Hl; [apply Hdeliver; congruence|apply Hidle].
  - (* OPeerBad *) apply Hdown. now left.
  - (* OFailNextWrite *) apply Henv. now left.
  - (* OReset *) apply Hdown. now left.
  - (* ONop *) apply Hidle.
Qed.

(* the two states send passes through: a packet id is consumed (also by a send that is then refused) ... *)
Definition consumed (s : sstate) : sstate :=
  mkS (s_open s) (s_link s) (s_queue s) (s_dial s) (s_sleeps s) (s_now s) (next_pid (s_pid s)) (s_ncid s) (s_nsend s)
      (s_accept s) (s_lat s) (s_failw s).

(* ... then the queue purged and the message appended, from where the drain starts *)
Definition enqueued (s : sstate) k cls r life : sstate :=
  mkS true (s_link s)
      (filter (unexpired (s_now s)) (s_queue s) ++ [mkEntry (s_nsend s) k cls (s_pid s) r (s_now s + life)])
      (s_dial s) (s_sleeps s) (s_now s) (next_pid (s_pid s)) (s_ncid s) (S (s_nsend s)) (s_accept s) (s_lat s) (s_failw s).

Lemma noenc_dec cls : {cls = EncNoEncoder} + {cls <> EncNoEncoder}.
Proof. destruct cls; (now left) || (right; discriminate). Qed.

(* What send does with a message that has an encoder (one without is refused before anything else): refused on a client
   that is not open, or when ten unexpired messages are held; else accepted and the queue drained. *)
Lemma send_eq s k cls r life : cls <> EncNoEncoder ->
  send s k cls r life =
  if s_open s then
    if (capacity <=? length (filter (unexpired (s_now s)) (s_queue s)))%nat
    then (set_queue (consumed s) (filter (unexpired (s_now s)) (s_queue s)), [ESendErr 3])
    else (fst (drain (enqueued s k cls r life)),
          EAccept (s_nsend s) k (s_pid s) r (s_now s + life) :: snd (drain (enqueued s k cls r life)) ++ [ESendOk])
  else (consumed s, [ESendErr 2]).
Proof.
  intros Hc. unfold send, enqueued, consumed. destruct cls; [|contradiction|]; destruct (s_open s); try reflexivity;
    cbn [negb]; destruct (capacity <=? _)%nat; try reflexivity; now destruct (drain _).
Qed.

(* the client as _connect finds it once open_connection has returned: connected on a fresh connection, no dial in
   flight, the pending messages still queued *)
Definition linked (s : sstate) : sstate :=
  mkS (s_open s) (Some (s_ncid s)) (s_queue s) None (s_sleeps s) (s_now s) (s_pid s) (S (s_ncid s)) (s_nsend s)
      (s_accept s) (s_lat s) (s_failw s).

(* What a completed dial does: refused, a connect task goes to sleep; accepted, the connection is up and the queue is
   drained; if that loses the link again, a connect task goes to sleep as well. *)
Lemma dial_done_eq s :
  dial_done s =
  if s_accept s then
    let r := drain (linked s) in
    (match s_link (fst r) with
     | Some _ => fst r
     | None => set_dial (fst r) (s_dial (fst r)) (s_sleeps (fst r) ++ [s_now s + retry_delay])
     end, EOpen (s_ncid s) :: ENotify true :: snd r)
  else (set_dial s None (s_sleeps s ++ [s_now s + retry_delay]), [ERefused]).
Proof.
  unfold dial_done, linked. destruct (s_accept s); [|reflexivity]. destruct (drain _) as [s2 evs]. cbn.
  now destruct (s_link s2).
Qed.

Definition Jst (tr : list ev) (s : sstate) : Prop := J tr (s_queue s) (s_nsend s).

Lemma go_down_J tr s q fw cl :
  J tr q (s_nsend s) -> quiet cl = true -> Jst (tr ++ snd (go_down s q fw cl)) (fst (go_down s q fw cl)).
Proof.
  intros HJ Hq. unfold go_down, start_dial.
  destruct (s_dial s); apply J_quiet; auto; cbn [snd]; rewrite quiet_app, Hq; reflexivity.
Qed.

Lemma drain_J tr s : Jst tr s -> Jst (tr ++ snd (drain s)) (fst (drain s)).
Proof.
  intros HJ. unfold drain. destruct (s_link s) as [c|]; [|cbn; now rewrite app_nil_r].
  apply (J_drain (s_now s) c _ _ _ (s_failw s)) in HJ.
  destruct (drain_q _ _ _ _) as [[evd rest] []]; [|exact HJ].
  apply (go_down_J _ s _ false []) in HJ; [|reflexivity].
  destruct (go_down s rest false []). cbn in *. now rewrite app_assoc.
Qed.

Lemma dial_done_J tr s : Jst tr s -> Jst (tr ++ snd (dial_done s)) (fst (dial_done s)).
Proof.
  intros HJ. rewrite dial_done_eq. destruct (s_accept s); [|apply J_quiet; auto].
  assert (HJ1 : Jst (tr ++ [EOpen (s_ncid s); ENotify true]) (linked s)) by (apply J_quiet; auto).
  apply drain_J in HJ1. rewrite <- app_assoc in HJ1. cbn [fst snd]. now destruct (s_link (fst (drain (linked s)))).
Qed.

Lemma adv_J tr s dt : Jst tr s -> Jst (tr ++ snd (adv s dt)) (fst (adv s dt)).
Proof.
  intros HJ. destruct (adv_cases s dt) as [[E _]|[[d [_ [_ [E _]]]]|[w [_ [_ [E _]]]]]]; rewrite E.
  - apply J_quiet; auto.
  - unfold fire_dial. pose proof (dial_done_J tr (set_now (set_dial s None (s_sleeps s)) d) HJ) as H.
    destruct (dial_done _). cbn in *. rewrite app_assoc. apply J_quiet; auto.
  - unfold wake. cbn. destruct (s_link s), (s_dial s); apply J_quiet; auto.
Qed.

Lemma send_J tr s k cls r life : Jst tr s -> Jst (tr ++ snd (send s k cls r life)) (fst (send s k cls r life)).
Proof.
  intros HJ. destruct (noenc_dec cls) as [->|Hc]; [apply J_quiet; auto|]. rewrite (send_eq _ _ _ _ _ Hc).
  destruct (s_open s); [|apply J_quiet; auto].
  destruct (_ <=? _)%nat; [apply J_quiet; [apply J_filter, HJ|reflexivity]|].
  assert (HJ2 : Jst (tr ++ [EAccept (s_nsend s) k (s_pid s) r (s_now s + life)]) (enqueued s k cls r life))
    by apply J_accept, J_filter, HJ.
  apply drain_J in HJ2. rewrite <- app_assoc in HJ2. cbn [fst snd]. rewrite app_comm_cons, app_assoc.
  apply J_quiet; auto.
Qed.

Lemma step_J tr s o : Jst tr s -> Jst (tr ++ snd (step s o)) (fst (step s o)).
Proof.
  apply (step_elim (fun _ => true) (fun s r => Jst tr s -> Jst (tr ++ snd r) (fst r))); clear s o; try reflexivity.
  - intros s HJ. now rewrite app_nil_r.
  - intros s j _ HJ. apply J_quiet; auto.
  - intros s a l fw _ HJ. now rewrite app_nil_r.
  - intros s c cl _ Hcl HJ. apply go_down_J; [exact HJ|]. destruct Hcl; now subst.
  - intros s _ _ HJ. apply J_quiet; auto.
  - intros s _ HJ. apply J_quiet; [exact (J_nil _ _ _ HJ)|now destruct (s_link s)].
  - intros s k cls r life. apply send_J.
  - intros s dt _. apply adv_J.
Qed.

Theorem trace_J pid0 ops : Jst (trace (init pid0) ops) (fst (run (init pid0) ops)).
Proof.
  apply (run_inv Jst (fun _ => true)) with (tr := []); [intros; now apply step_J|apply J_init|now apply forallb_forall].
Qed.

Definition life_ok (s : sstate) : Prop :=
  if s_open s
  then match s_link s with
       | Some _ => s_dial s = None              (* connected: no dial in flight *)
       | None => s_dial s <> None \/ s_sleeps s <> []   (* down: a connect task exists *)
       end
  else s_link s = None /\ s_dial s = None /\ s_sleeps s = [] /\ s_queue s = [].

Record SInv (s : sstate) : Prop := {
  si_bound : (length (s_queue s) <= capacity)%nat;
  si_idle : forall c, s_link s = Some c -> s_queue s = [];
  si_life : life_ok s }.

Lemma SInv_ext s s1 :
  SInv s -> s_open s1 = s_open s -> s_link s1 = s_link s -> s_dial s1 = s_dial s ->
  s_sleeps s1 = s_sleeps s -> s_queue s1 = s_queue s -> SInv s1.
Proof.
  intros [Hb Hi Hl] E1 E2 E3 E4 E5. constructor; [now rewrite E5|intros c; rewrite E2, E5; apply Hi|].
  unfold life_ok in *. now rewrite E1, E2, E3, E4, E5.
Qed.

Lemma SInv_init pid0 : SInv (init pid0).
Proof. constructor; cbn; [unfold capacity; lia|intros; discriminate|unfold life_ok; cbn; auto]. Qed.

Definition closed_state (s : sstate) : Prop :=
  s_open s = false /\ s_link s = None /\ s_dial s = None /\ s_sleeps s = [] /\ s_queue s = [].

Lemma life_cases s : life_ok s ->
  closed_state s \/
  (s_open s = true /\ ((exists c, s_link s = Some c /\ s_dial s = None) \/
                       (s_link s = None /\ (s_dial s <> None \/ s_sleeps s <> [])))).
Proof.
  unfold life_ok, closed_state. destruct (s_open s); [|tauto]. destruct (s_link s) as [c|]; [|tauto]. right. eauto.
Qed.

Lemma SInv_connected s c : SInv s -> s_link s = Some c -> s_open s = true /\ s_dial s = None.
Proof.
  intros HI Hl. destruct (life_cases _ (si_life _ HI)) as [[_ [L _]]|[Ho [[c' [_ L]]|[L _]]]]; [congruence|auto|congruence].
Qed.

(* the introduction rule the *_keeps lemmas use: SInv of an open client, si_idle and life_ok read off one case
   analysis on the link *)
Lemma SInv_open s :
  (length (s_queue s) <= capacity)%nat -> s_open s = true ->
  match s_link s with
  | Some _ => s_queue s = [] /\ s_dial s = None
  | None => s_dial s <> None \/ s_sleeps s <> []
  end -> SInv s.
Proof.
  intros Hb Ho H. constructor; [exact Hb|intros c Hc; rewrite Hc in H; apply H|].
  unfold life_ok. rewrite Ho. destruct (s_link s); tauto.
Qed.

(* Walk a trace keeping the set of connections the client holds open.  None = the
   discipline is violated: a second connection opened or dialled while one is open,
   something closed / written / delivered on a connection that is not the open one. *)
Fixpoint walk (acc : list nat) (evs : list ev) : option (list nat) :=
  match evs with
  | [] => Some acc
  | e :: r =>
    match e with
    | EOpen c => match acc with [] => walk [c] r | _ => None end
    | EDial => match acc with [] => walk acc r | _ => None end
    | EClose c | EWFail c _ | ELost c =>
      match acc with [c'] => if Nat.eqb c c' then walk [] r else None | _ => None end
    | EWrote c _ _ _ _ =>
      match acc with [c'] => if Nat.eqb c c' then walk acc r else None | _ => None end
    | EDeliver _ => match acc with [_] => walk acc r | _ => None end
    | _ => walk acc r
    end
  end.

Lemma walk_app acc a b :
  walk acc (a ++ b) = match walk acc a with Some acc' => walk acc' b | None => None end.
Proof.
  revert acc. induction a as [|e a IH]; intros acc; cbn; [reflexivity|].
  destruct e; try apply IH;
    destruct acc as [|c' [|? ?]]; try reflexivity; try apply IH;
    destruct (Nat.eqb _ c'); try reflexivity; apply IH.
Qed.

Definition held (s : sstate) : list nat :=
  match s_link s with Some c => [c] | None => [] end.

(* one induction for what the state invariant and the walk need of drain_q *)
Lemma drain_q_shape now c q : forall fw,
  let '(evs, rest, f) := drain_q now c fw q in
  (length rest <= length q)%nat /\ (f = false -> rest = []) /\ walk [c] evs = Some (if f then [] else [c]).
Proof.
  induction q as [|e q IH]; intros fw; [cbn; auto|].
  rewrite drain_q_cons. destruct (sendable now e).
  - destruct fw.
    + unfold requeue. cbn. rewrite Nat.eqb_refl. destruct (e_retries e); cbn; repeat split; (lia || discriminate).
    + specialize (IH false). destruct (drain_q now c false q) as [[evs rest] f]. cbn. rewrite Nat.eqb_refl.
      destruct IH as [A [B C]]. repeat split; auto.
  - specialize (IH fw). destruct (drain_q now c fw q) as [[evs rest] f]. cbn. destruct IH as [A [B C]]. repeat split; auto.
Qed.

(* the result r of a block run from s keeps the state invariant, and its events keep the discipline of [walk] *)
Definition keeps (s : sstate) (r : sstate * list ev) : Prop :=
  SInv (fst r) /\ walk (held s) (snd r) = Some (held (fst r)).

Lemma go_down_dials s q fw cl :
  s_dial s = None ->
  go_down s q fw cl =
  (mkS (s_open s) None q (Some (s_now s + s_lat s)) (s_sleeps s) (s_now s) (s_pid s) (s_ncid s) (s_nsend s)
       (s_accept s) (s_lat s) fw, cl ++ [ENotify false; EDial]).
Proof. intros H. unfold go_down, start_dial. now rewrite H. Qed.

(* drain on an open client whose lifecycle is consistent (the queue need not be empty) *)
Lemma drain_keeps s :
  (length (s_queue s) <= capacity)%nat -> s_open s = true -> life_ok s ->
  keeps s (drain s) /\ s_open (fst (drain s)) = true.
Proof.
  intros Hb Ho L. destruct (life_cases _ L) as [[Ho' _]|[_ [[c [Hl Hd]]|[Hl L']]]]; [congruence| |];
    unfold drain, keeps, held; rewrite Hl.
  - pose proof (drain_q_shape (s_now s) c (s_queue s) (s_failw s)) as H.
    destruct (drain_q _ _ _ _) as [[evd rest] f]. destruct H as [Hlen [Hnil Hw]]. destruct f.
    + rewrite (go_down_dials _ _ _ _ Hd). cbn. rewrite walk_app, Hw. split; [split; [|reflexivity]|exact Ho].
      apply SInv_open; cbn; [lia|exact Ho|left; discriminate].
    + rewrite (Hnil eq_refl). cbn. rewrite Hl. split; [split; [|exact Hw]|exact Ho].
      apply SInv_open; cbn; [unfold capacity; lia|exact Ho|now rewrite Hl].
  - cbn. rewrite Hl. split; [split; [|reflexivity]|exact Ho]. apply SInv_open; [exact Hb|exact Ho|now rewrite Hl].
Qed.

Lemma dial_done_keeps s :
  (length (s_queue s) <= capacity)%nat -> s_open s = true -> s_link s = None -> keeps s (dial_done s).
Proof.
  intros Hb Ho Hl. rewrite dial_done_eq. unfold keeps, held. rewrite Hl. destruct (s_accept s).
  - destruct (drain_keeps (linked s)) as [[HI Hw] Ho2]; [exact Hb|exact Ho|unfold life_ok; cbn; now rewrite Ho|].
    (* EOpen with nothing held: the walk goes on from what [linked s] holds *)
    assert (Hw1 : walk [] (EOpen (s_ncid s) :: ENotify true :: snd (drain (linked s))) =
                  Some (held (fst (drain (linked s))))) by exact Hw.
    cbn [fst snd]. rewrite Hw1. unfold held.
    destruct (s_link (fst (drain (linked s)))) eqn:Hl2; [rewrite Hl2; now split|].
    cbn [s_link set_dial]. rewrite Hl2. split; [|reflexivity].
    apply SInv_open; [exact (si_bound _ HI)|exact Ho2|]. cbn [set_dial s_link s_sleeps]. rewrite Hl2. right.
    apply not_eq_sym, app_cons_not_nil.
  - cbn. rewrite Hl. split; [|reflexivity].
    apply SInv_open; cbn; [exact Hb|exact Ho|]. rewrite Hl. right. apply not_eq_sym, app_cons_not_nil.
Qed.

Lemma adv_keeps s dt : SInv s -> keeps s (adv s dt).
Proof.
  intros HI. pose proof (si_bound _ HI) as Hb.
  destruct (adv_cases s dt) as [[E _]|[[d [Hd [_ [E _]]]]|[w [Hw [_ [E _]]]]]]; rewrite E; unfold keeps.
  - cbn. split; [apply (SInv_ext s); auto|reflexivity].
  - destruct (life_cases _ (si_life _ HI)) as [[_ [_ [L _]]]|[Ho [[c [_ L]]|[Hl _]]]]; try congruence.
    unfold fire_dial.
    destruct (dial_done_keeps (set_now (set_dial s None (s_sleeps s)) d) Hb Ho Hl) as [HI1 Hw1].
    destruct (dial_done _). cbn in *. unfold held in *. cbn in Hw1. rewrite walk_app, Hw1. auto.
  - unfold wake, held. cbn.
    destruct (life_cases _ (si_life _ HI)) as [[_ [_ [_ [L _]]]]|[Ho [[c [Hl Hd]]|[Hl _]]]].
    + rewrite L in Hw. destruct Hw.
    + rewrite Hl. cbn. rewrite Hl. split; [|reflexivity].
      apply SInv_open; cbn; [exact Hb|exact Ho|]. rewrite Hl. split; [exact (si_idle _ HI c Hl)|exact Hd].
    + rewrite Hl. destruct (s_dial s); cbn; rewrite Hl; (split; [|reflexivity]);
        (apply SInv_open; cbn; [exact Hb|exact Ho|]); rewrite Hl; left; discriminate.
Qed.

Lemma send_keeps s k cls r life : SInv s -> keeps s (send s k cls r life).
Proof.
  intros HI. pose proof (si_bound _ HI) as Hb. unfold keeps.
  destruct (noenc_dec cls) as [->|Hc]; [now split|]. rewrite (send_eq _ _ _ _ _ Hc).
  pose proof (filter_length_le (unexpired (s_now s)) (s_queue s)) as Hlen.
  destruct (s_open s) eqn:Ho; [destruct (capacity <=? _)%nat eqn:Hcap|].
  - (* the purge alone: nothing is queued while connected *)
    split; [|reflexivity].
    destruct (life_cases _ (si_life _ HI)) as [[Ho' _]|[_ [[c [Hl Hd]]|[Hl L]]]]; [congruence| |];
      (apply SInv_open; cbn; [lia|exact Ho|rewrite Hl; auto]). now rewrite (si_idle _ HI c Hl).
  - apply Nat.leb_gt in Hcap.
    destruct (drain_keeps (enqueued s k cls r life)) as [[HI2 Hw] _]; cbn.
    + rewrite app_length. cbn. unfold capacity in *. lia.
    + reflexivity.
    + pose proof (si_life _ HI) as L. unfold life_ok in *. cbn. now rewrite Ho in L.
    + split; [exact HI2|]. unfold held in *. cbn in Hw. now rewrite walk_app, Hw.
  - split; [apply (SInv_ext s); auto|reflexivity].
Qed.

Lemma step_keeps s o : SInv s -> keeps s (step s o).
Proof.
  apply (step_elim (fun _ => true) (fun s r => SInv s -> keeps s r)); clear s o; try reflexivity; unfold keeps, held.
  - intros s HI. now split.
  - intros s j Hl HI. cbn. destruct (s_link s); [now split|congruence].
  - intros s a l fw _ HI. split; [apply (SInv_ext s); auto|reflexivity].
  - intros s c cl Hl Hcl HI. destruct (SInv_connected _ _ HI Hl) as [Ho L].
    rewrite (go_down_dials _ _ _ _ L), Hl. cbn.
    split; [|destruct Hcl; subst cl; cbn; now rewrite Nat.eqb_refl].
    apply SInv_open; cbn; [exact (si_bound _ HI)|exact Ho|left; discriminate].
  - intros s _ Ho HI. destruct (life_cases _ (si_life _ HI)) as [[_ [L _]]|[Ho' _]]; [|congruence].
    cbn. rewrite L. split; [|reflexivity].
    apply SInv_open; cbn; [exact (si_bound _ HI)|reflexivity|left; discriminate].
  - intros s Ho HI. cbn. split; [|destruct (s_link s); cbn; now rewrite ?Nat.eqb_refl].
    constructor; cbn; [unfold capacity; lia|reflexivity|unfold life_ok; cbn; auto].
  - intros s k cls r life. apply send_keeps.
  - intros s dt _. apply adv_keeps.
Qed.

Theorem reachable_keeps pid0 ops :
  SInv (fst (run (init pid0) ops)) /\ walk [] (trace (init pid0) ops) = Some (held (fst (run (init pid0) ops))).
Proof.
  apply (run_inv (fun tr s => SInv s /\ walk [] tr = Some (held s)) (fun _ => true)) with (tr := []).
  - intros tr s o [HI Hw] _. destruct (step_keeps s o HI) as [HI' Hw']. split; [exact HI'|]. now rewrite walk_app, Hw.
  - split; [apply SInv_init|reflexivity].
  - now apply forallb_forall.
Qed.

Corollary reachable_SInv pid0 ops : SInv (fst (run (init pid0) ops)).
Proof. exact (proj1 (reachable_keeps pid0 ops)). Qed.

Corollary trace_walk pid0 ops :
  walk [] (trace (init pid0) ops) = Some (held (fst (run (init pid0) ops))).
Proof. exact (proj2 (reachable_keeps pid0 ops)). Qed.

Lemma walk_prefix acc a b r : walk acc (a ++ b) = Some r -> exists m, walk acc a = Some m.
Proof. rewrite walk_app. destruct (walk acc a); [eauto|discriminate]. Qed.

Lemma walk_le1 evs : forall acc r, (length acc <= 1)%nat -> walk acc evs = Some r -> (length r <= 1)%nat.
Proof.
  induction evs as [|e evs IH]; intros acc r Ha H; cbn in H; [inversion H; subst; exact Ha|].
  destruct e;
  repeat match type of H with
  | context [match ?x with _ => _ end] => destruct x; try discriminate
  end; (eapply IH; [|exact H]; cbn in *; lia).
Qed.

(* a frame the reader rejects costs the connection, and a new one is dialled at once *)
Lemma peer_bad_redials s c : SInv s -> s_link s = Some c ->
  snd (step s OPeerBad) = [EClose c; ENotify false; EDial] /\
  s_link (fst (step s OPeerBad)) = None /\ s_dial (fst (step s OPeerBad)) <> None.
Proof.
  intros HI Hl. destruct (SInv_connected _ _ HI Hl) as [_ L].
  cbn [step]. rewrite Hl, (go_down_dials _ _ _ _ L). cbn. repeat split. discriminate.
Qed.

Definition silent_ev (e : ev) : bool :=
  match e with ESendErr _ | ETime _ => true | _ => false end.

Definition not_open_op (o : op) : bool := match o with OOpen => false | _ => true end.

Lemma send_closed s k cls r l : closed_state s ->
  closed_state (fst (send s k cls r l)) /\
  snd (send s k cls r l) = [ESendErr (match cls with EncNoEncoder => 1 | _ => 2 end)].
Proof. intros [C1 C]. unfold send, closed_state. rewrite C1. now destruct cls. Qed.

Lemma step_closed s o : closed_state s -> not_open_op o = true ->
  closed_state (fst (step s o)) /\ forallb silent_ev (snd (step s o)) = true.
Proof.
  intros HC Hno. revert s o Hno HC.
  apply (step_elim not_open_op (fun s r => closed_state s -> closed_state (fst r) /\ forallb silent_ev (snd r) = true)).
  - auto.
  - intros s j Hl [_ [C2 _]]. contradiction.
  - auto.
  - intros s c cl Hl _ [_ [C2 _]]. congruence.
  - discriminate.
  - intros s Ho [C1 _]. congruence.
  - intros s k cls r l HC. destruct (send_closed s k cls r l HC) as [A ->]. auto.
  - intros s dt _ HC. pose proof HC as [_ [_ [C3 [C4 _]]]]. unfold adv. rewrite C3, C4. auto.
Qed.

Lemma run_closed s ops : closed_state s -> forallb not_open_op ops = true ->
  closed_state (fst (run s ops)) /\ forallb silent_ev (trace s ops) = true.
Proof.
  intros HC Hno.
  apply (run_inv (fun tr s => closed_state s /\ forallb silent_ev tr = true) not_open_op) with (tr := []); auto.
  intros tr s1 o [HC1 Hs] Ho. destruct (step_closed s1 o HC1 Ho) as [A B]. now rewrite forallb_app, Hs, B.
Qed.

Lemma close_closed s : SInv s -> closed_state (fst (step s OClose)).
Proof.
  intros HI. cbn. destruct (s_open s) eqn:Ho; cbn; [repeat split|].
  destruct (life_cases _ (si_life _ HI)) as [HC|[Ho' _]]; [exact HC|congruence].
Qed.

Lemma run_app_fst a : forall s b, fst (run s (a ++ b)) = fst (run (fst (run s a)) b).
Proof.
  induction a as [|o a IH]; intros s b; cbn; [reflexivity|].
  destruct (step s o) as [s1 evs]. specialize (IH s1 b).
  destruct (run s1 (a ++ b)) as [s2 r]. destruct (run s1 a) as [s3 r']. cbn in *. exact IH.
Qed.

Theorem trace_close_holds_nothing pid0 ops :
  walk [] (trace (init pid0) (ops ++ [OClose])) = Some [].
Proof.
  rewrite trace_walk, run_app_fst, run_cons. cbn [run fst]. unfold held.
  now destruct (close_closed _ (reachable_SInv pid0 ops)) as [_ [-> _]].
Qed.

(* the sends that take a packet id: all but those without an encoder, refused before the id is consumed *)
Fixpoint consuming (ops : list op) : nat :=
  match ops with
  | [] => 0
  | OSend _ EncNoEncoder _ _ :: r => consuming r
  | OSend _ _ _ _ :: r => S (consuming r)
  | _ :: r => consuming r
  end.

Lemma go_down_pid s q fw cl : s_pid (fst (go_down s q fw cl)) = s_pid s.
Proof. unfold go_down. now destruct (start_dial s). Qed.

Lemma drain_pid s : s_pid (fst (drain s)) = s_pid s.
Proof.
  unfold drain. destruct (s_link s); [|reflexivity]. destruct (drain_q _ _ _ _) as [[? rest] []]; [|reflexivity].
  pose proof (go_down_pid s rest false []). now destruct (go_down s rest false []).
Qed.

Lemma dial_done_pid s : s_pid (fst (dial_done s)) = s_pid s.
Proof.
  rewrite dial_done_eq. destruct (s_accept s); [|reflexivity]. cbn [fst]. pose proof (drain_pid (linked s)) as H.
  now destruct (s_link _).
Qed.

Lemma adv_pid s dt : s_pid (fst (adv s dt)) = s_pid s.
Proof.
  destruct (adv_cases s dt) as [[E _]|[[d [_ [_ [E _]]]]|[w [_ [_ [E _]]]]]]; rewrite E; [reflexivity| |].
  - unfold fire_dial. pose proof (dial_done_pid (set_now (set_dial s None (s_sleeps s)) d)) as H.
    now destruct (dial_done _).
  - unfold wake. cbn. now destruct (s_link s), (s_dial s).
Qed.

Lemma send_pid s k cls r life : cls <> EncNoEncoder -> s_pid (fst (send s k cls r life)) = next_pid (s_pid s).
Proof.
  intros Hc. rewrite (send_eq _ _ _ _ _ Hc). destruct (s_open s); [destruct (capacity <=? _)%nat|]; try reflexivity.
  exact (drain_pid _).
Qed.

Lemma step_pid s o :
  s_pid (fst (step s o)) = match o with
                           | OSend _ EncNoEncoder _ _ => s_pid s
                           | OSend _ _ _ _ => next_pid (s_pid s)
                           | _ => s_pid s end.
Proof.
  destruct o; cbn [step]; try reflexivity; try (destruct (s_link s); [apply go_down_pid|reflexivity]).
  - (* OOpen *) now destruct (s_open s).
  - (* OClose *) now destruct (s_open s).
  - (* OSend *) destruct cls; [apply send_pid; discriminate|reflexivity|apply send_pid; discriminate].
  - (* OAdv *) apply adv_pid.
  - (* OPeerFrame *) now destruct (s_link s).
Qed.

Lemma run_pid ops : forall s,
  s_pid (fst (run s ops)) mod 256 = (s_pid s + Z.of_nat (consuming ops)) mod 256.
Proof.
  induction ops as [|o ops IH]; intros s; [cbn; now rewrite Z.add_0_r|].
  rewrite run_cons. cbn [fst]. rewrite IH, step_pid.
  destruct o; cbn [consuming]; try reflexivity.
  destruct cls; try reflexivity; unfold next_pid;
    rewrite Nat2Z.inj_succ, Zplus_mod_idemp_l; f_equal; lia.
Qed.

(* A connection comes up with no write fault armed: exactly the unexpired encodable
   pending messages are written, in acceptance (queue) order, once each, and nothing
   stays behind. *)
Lemma dial_done_flush s :
  s_accept s = true -> s_failw s = false ->
  dial_done s =
  (mkS (s_open s) (Some (s_ncid s)) [] None (s_sleeps s) (s_now s) (s_pid s) (S (s_ncid s)) (s_nsend s)
       (s_accept s) (s_lat s) false,
   EOpen (s_ncid s) :: ENotify true ::
   map (wrote_of (s_ncid s) (s_now s)) (filter (sendable (s_now s)) (s_queue s))).
Proof.
  intros Ha Hf. unfold dial_done, drain. rewrite Ha. cbn. rewrite Hf, drain_q_nofault. cbn.
  rewrite ?Ha. reflexivity.
Qed.

Lemma send_connected s c k r life :
  SInv s -> s_link s = Some c -> s_failw s = false -> 0 < life ->
  snd (step s (OSend k EncOk r life)) =
  [EAccept (s_nsend s) k (s_pid s) r (s_now s + life);
   EWrote c (s_nsend s) k (s_pid s) (s_now s); ESendOk]
  /\ s_queue (fst (step s (OSend k EncOk r life))) = []
  /\ s_link (fst (step s (OSend k EncOk r life))) = Some c.
Proof.
  intros HI Hl Hf Hlife. destruct (SInv_connected _ _ HI Hl) as [Ho _]. cbn [step]. rewrite send_eq, Ho by discriminate.
  (* nothing is queued while connected: the drain starts on the new entry alone *)
  unfold drain, enqueued. cbn [s_link s_now s_failw s_queue]. rewrite Hl, Hf, (si_idle _ HI c Hl), drain_q_nofault.
  cbn [filter app]. unfold sendable. cbn [e_expiry e_cls]. replace (s_now s <? s_now s + life) with true by lia.
  cbn. auto.
Qed.

Lemma send_overflow s k cls r life :
  s_open s = true -> cls <> EncNoEncoder ->
  (capacity <= length (filter (unexpired (s_now s)) (s_queue s)))%nat ->
  snd (step s (OSend k cls r life)) = [ESendErr 3] /\
  s_queue (fst (step s (OSend k cls r life))) = filter (unexpired (s_now s)) (s_queue s).
Proof.
  intros Ho Hc Hcap. apply Nat.leb_le in Hcap. cbn [step]. rewrite (send_eq _ _ _ _ _ Hc), Ho, Hcap. auto.
Qed.

Lemma send_not_open s k cls r life :
  s_open s = false -> cls <> EncNoEncoder ->
  snd (step s (OSend k cls r life)) = [ESendErr 2] /\
  s_queue (fst (step s (OSend k cls r life))) = s_queue s /\
  s_link (fst (step s (OSend k cls r life))) = s_link s /\
  s_dial (fst (step s (OSend k cls r life))) = s_dial s /\
  s_sleeps (fst (step s (OSend k cls r life))) = s_sleeps s.
Proof.
  intros Ho Hc. cbn [step]. rewrite (send_eq _ _ _ _ _ Hc), Ho. cbn. auto.
Qed.

Lemma send_queued s k cls r life :
  s_open s = true -> s_link s = None -> cls <> EncNoEncoder ->
  (length (filter (unexpired (s_now s)) (s_queue s)) < capacity)%nat ->
  snd (step s (OSend k cls r life)) = [EAccept (s_nsend s) k (s_pid s) r (s_now s + life); ESendOk] /\
  s_queue (fst (step s (OSend k cls r life))) =
    filter (unexpired (s_now s)) (s_queue s) ++ [mkEntry (s_nsend s) k cls (s_pid s) r (s_now s + life)].
Proof.
  intros Ho Hl Hc Hcap. apply Nat.leb_gt in Hcap. cbn [step]. rewrite (send_eq _ _ _ _ _ Hc), Ho, Hcap.
  unfold drain. cbn [enqueued s_link]. rewrite Hl. auto.
Qed.

(* a transient write failure keeps an idempotent command: it goes back to the head *)
Lemma send_write_fault s c k n life :
  SInv s -> s_link s = Some c -> s_failw s = true -> 0 < life ->
  snd (step s (OSend k EncOk (S n) life)) =
  [EAccept (s_nsend s) k (s_pid s) (S n) (s_now s + life);
   EWFail c (s_nsend s); ENotify false; EDial; ESendOk]
  /\ s_queue (fst (step s (OSend k EncOk (S n) life))) =
     [mkEntry (s_nsend s) k EncOk (s_pid s) n (s_now s + life)]
  /\ s_link (fst (step s (OSend k EncOk (S n) life))) = None.
Proof.
  intros HI Hl Hf Hlife. destruct (SInv_connected _ _ HI Hl) as [Ho L]. cbn [step]. rewrite send_eq, Ho by discriminate.
  unfold drain, enqueued. cbn [s_link s_now s_failw s_queue]. rewrite Hl, Hf, (si_idle _ HI c Hl).
  cbn [filter app]. rewrite drain_q_cons. unfold sendable. cbn [e_expiry e_cls].
  replace (s_now s <? s_now s + life) with true by lia. cbn [andb]. rewrite go_down_dials by exact L. cbn. auto.
Qed.

Definition valid_op (o : op) : bool :=
  match o with OAdv dt => 0 <=? dt | ONet _ l => 0 <=? l | _ => true end.

Record TInv (s : sstate) : Prop := {
  ti_dial : forall d, s_dial s = Some d -> s_now s <= d;
  ti_sleeps : forall w, In w (s_sleeps s) -> s_now s <= w <= s_now s + retry_delay;
  ti_lat : 0 <= s_lat s }.

Lemma remove_one_in x w l : In x (remove_one w l) -> In x l.
Proof.
  induction l as [|y l IH]; cbn; [auto|]. destruct (w =? y); [now right|].
  intros [<-|H]; [now left|right; auto].
Qed.

Lemma remove_one_length w l : In w l -> S (length (remove_one w l)) = length l.
Proof.
  induction l as [|y l IH]; cbn; [intros []|]. destruct (w =? y) eqn:E; [reflexivity|].
  intros [->|H]; [rewrite Z.eqb_refl in E; discriminate|]. cbn. now rewrite IH.
Qed.

Lemma go_down_TInv s q fw cl : TInv s -> TInv (fst (go_down s q fw cl)) /\ s_now (fst (go_down s q fw cl)) = s_now s.
Proof.
  intros [T1 T2 T3]. unfold go_down, start_dial. destruct (s_dial s) as [d|] eqn:Hd; cbn; (split; [constructor; cbn; auto|reflexivity]).
  intros d0 E; injection E as <-. lia.
Qed.

Lemma drain_TInv s : TInv s -> TInv (fst (drain s)) /\ s_now (fst (drain s)) = s_now s.
Proof.
  intros HT. unfold drain. destruct (s_link s); [|auto]. destruct (drain_q _ _ _ _) as [[? rest] []].
  - pose proof (go_down_TInv s rest false [] HT). now destruct (go_down s rest false []).
  - destruct HT. split; [constructor|]; auto.
Qed.

Lemma dial_done_TInv s : TInv s -> TInv (fst (dial_done s)).
Proof.
  intros [T1 T2 T3]. rewrite dial_done_eq.
  assert (Hs : forall s', TInv s' -> s_now s' = s_now s ->
               TInv (set_dial s' (s_dial s') (s_sleeps s' ++ [s_now s + retry_delay]))).
  { intros s' [U1 U2 U3] Hn. constructor; cbn; auto.
    intros w Hw. rewrite Hn in *. apply in_app_or in Hw as [Hw|[<-|[]]]; [auto|unfold retry_delay; lia]. }
  destruct (s_accept s).
  - destruct (drain_TInv (linked s)) as [HT Hn]; [constructor; cbn; auto; discriminate|].
    cbn [fst]. destruct (s_link _); [exact HT|exact (Hs _ HT Hn)].
  - apply (Hs (set_dial s None (s_sleeps s))); [constructor; cbn; auto; discriminate|reflexivity].
Qed.

Lemma adv_TInv s dt : TInv s -> 0 <= dt -> TInv (fst (adv s dt)).
Proof.
  intros HT Hdt. pose proof HT as [T1 T2 T3].
  destruct (adv_cases s dt) as [[E [I1 I2]]|[[d [Hd [Hle [E Hmin]]]]|[w [Hw [Hle [E [Hmin Hlt]]]]]]]; rewrite E.
  - constructor; cbn; auto.
    + intros d Hd. specialize (I1 d Hd). lia.
    + intros w Hw. specialize (I2 w Hw). specialize (T2 w Hw). lia.
  - unfold fire_dial. pose proof (dial_done_TInv (set_now (set_dial s None (s_sleeps s)) d)) as H.
    destruct (dial_done _). apply H. constructor; cbn; auto; [discriminate|].
    intros w Hw. specialize (Hmin w Hw). specialize (T2 w Hw). specialize (T1 d Hd). lia.
  - unfold wake. cbn. pose proof (T2 w Hw) as Bw.
    assert (Hrest : forall x, In x (remove_one w (s_sleeps s)) -> w <= x <= w + retry_delay).
    { intros x Hx. apply remove_one_in in Hx. specialize (Hmin x Hx). specialize (T2 x Hx). lia. }
    destruct (s_link s), (s_dial s) as [d|] eqn:Hd; cbn; constructor; cbn; auto;
      intros d0 E0; try discriminate; injection E0 as <-; try specialize (Hlt _ eq_refl); lia.
Qed.

Lemma send_TInv s k cls r life : TInv s -> TInv (fst (send s k cls r life)).
Proof.
  intros HT. destruct (noenc_dec cls) as [->|Hc]; [exact HT|]. rewrite (send_eq _ _ _ _ _ Hc). destruct HT as [T1 T2 T3].
  destruct (s_open s); [destruct (capacity <=? _)%nat|]; [now constructor|apply drain_TInv; now constructor|now constructor].
Qed.

Lemma step_TInv s o : TInv s -> valid_op o = true -> TInv (fst (step s o)).
Proof.
  intros HT Hv. revert s o Hv HT. apply (step_elim valid_op (fun s r => TInv s -> TInv (fst r))).
  - auto.
  - auto.
  - intros s a l fw Hl [T1 T2 T3]. constructor; auto. cbn in *. destruct Hl; [subst; auto|lia].
  - intros s c cl _ _ HT. apply go_down_TInv, HT.
  - intros s _ _ [T1 T2 T3]. constructor; cbn; auto. intros d E; injection E as <-. lia.
  - intros s _ [T1 T2 T3]. constructor; cbn; auto; [discriminate|intros w []].
  - intros s k cls r life. apply send_TInv.
  - intros s dt Hdt HT. apply adv_TInv; [exact HT|]. cbn in Hdt. lia.
Qed.

Lemma TInv_init pid0 : TInv (init pid0).
Proof. constructor; cbn; [intros; discriminate|intros w []|lia]. Qed.

Theorem reachable_TInv pid0 ops :
  forallb valid_op ops = true -> TInv (fst (run (init pid0) ops)).
Proof. exact (run_inv (fun _ => TInv) valid_op (fun _ => step_TInv) ops [] _ (TInv_init pid0)). Qed.

(* n advances of dt, each stopping at the first timer it meets (Sock.adv) *)
Fixpoint advs (n : nat) (dt : Z) (s : sstate) : sstate :=
  match n with O => s | S m => advs m dt (fst (step s (OAdv dt))) end.

Lemma wake_step s dt w :
  SInv s -> TInv s -> 0 <= dt -> s_link s = None -> adv s dt = wake s w ->
  let s1 := fst (step s (OAdv dt)) in
  SInv s1 /\ TInv s1 /\
  s1 = mkS (s_open s) None (s_queue s) (Some (match s_dial s with Some d => d | None => w + s_lat s end))
           (remove_one w (s_sleeps s)) w (s_pid s) (s_ncid s) (s_nsend s) (s_accept s) (s_lat s) (s_failw s).
Proof.
  intros HI HT Hdt Hl E. split; [exact (proj1 (step_keeps s (OAdv dt) HI))|]. split.
  - apply step_TInv; [exact HT|]. cbn. lia.
  - cbn [step]. rewrite E. unfold wake. cbn. rewrite Hl. destruct (s_dial s); unfold set_now, set_dial; cbn; now rewrite Hl.
Qed.

(* dt covers the dial in flight, or (no dial in flight) every pending wake-up plus one dial latency *)
Definition covers (s : sstate) (dt : Z) : Prop :=
  (forall d, s_dial s = Some d -> d <= s_now s + dt) /\
  (s_dial s = None -> forall w, In w (s_sleeps s) -> w + s_lat s <= s_now s + dt).

(* The induction behind [heals]: T is an instant within the advance that covers the dial in flight or, with none in
   flight, every wake-up plus one latency.  A firing timer connects, or ends a sleeping task and leaves a dial in
   flight that T still covers. *)
Lemma heals_by T dt : forall n s,
  length (s_sleeps s) = n -> SInv s -> TInv s -> s_open s = true -> s_link s = None ->
  s_accept s = true -> s_failw s = false -> 0 <= dt -> T <= s_now s + dt ->
  (forall d, s_dial s = Some d -> d <= T) ->
  (s_dial s = None -> forall w, In w (s_sleeps s) -> w + s_lat s <= T) ->
  exists m, (m <= n + 1)%nat /\ s_link (advs m dt s) <> None /\
            s_open (advs m dt s) = true /\ s_now (advs m dt s) <= T.
Proof.
  induction n as [n IH] using lt_wf_ind. intros s Hn HI HT Ho Hk Ha Hf Hdt HT' C1 C2.
  destruct (adv_cases s dt) as [[E [I1 I2]]|[[d [Hd [_ [E _]]]]|[w [Hw [_ [E _]]]]]].
  - (* no timer within dt: then T covers none, but a down client has one *)
    destruct (life_cases _ (si_life _ HI)) as [[L _]|[_ [[c [L _]]|[_ L]]]]; try congruence.
    destruct (s_dial s) as [d|]; [specialize (I1 d eq_refl); specialize (C1 d eq_refl); lia|].
    destruct L as [L|L]; [congruence|]. destruct (s_sleeps s) as [|x r]; [congruence|].
    specialize (I2 x (or_introl eq_refl)). specialize (C2 eq_refl x (or_introl eq_refl)). pose proof (ti_lat _ HT). lia.
  - exists 1%nat. cbn [advs step]. rewrite E. unfold fire_dial. rewrite dial_done_flush by (cbn; assumption). cbn.
    repeat split; [lia|discriminate|exact Ho|auto].
  - destruct (wake_step s dt w HI HT Hdt Hk E) as [HI1 [HT1 Es1]].
    pose proof (ti_sleeps _ HT w Hw) as Bw. pose proof (remove_one_length w _ Hw) as Hlen.
    assert (Hn1 : (length (remove_one w (s_sleeps s)) < n)%nat) by lia.
    (* the wake leaves s_open, s_link, s_accept and s_failw as they stand: those premises of IH, and 0 <= dt, go by
       [trivial]; the three left are about the clock, which stands at w, and the dial in flight *)
    destruct (IH _ Hn1 _ (f_equal (fun x => length (s_sleeps x)) Es1) HI1 HT1) as [m [M1 M]];
      rewrite ?Es1; cbn; trivial.
    + (* T <= w + dt, since s_now s <= w *) lia.
    + (* T covers the dial in flight afterwards, the old one or the one just started *)
      intros d' [= <-]. destruct (s_dial s) as [d|]; auto.
    + (* the premise for "no dial in flight" is void: one is *) discriminate.
    + exists (S m). split; [lia|exact M].
Qed.

(* C07_heals, general form: each advance stops at one timer; a wake-up uses up a sleeping connect task, the dial
   connects: hence at most one advance per task, plus one *)
Theorem heals s dt :
  SInv s -> TInv s -> s_open s = true -> s_accept s = true -> s_failw s = false ->
  0 <= dt -> covers s dt ->
  exists m, (m <= length (s_sleeps s) + 1)%nat /\ s_link (advs m dt s) <> None /\
            s_open (advs m dt s) = true /\ s_now (advs m dt s) <= s_now s + dt.
Proof.
  intros HI HT Ho Ha Hf Hdt [C1 C2].
  destruct (life_cases _ (si_life _ HI)) as [[L _]|[_ [[c [Hk _]]|[Hk _]]]]; [congruence| |].
  - exists 0%nat. cbn. repeat split; [lia|congruence|exact Ho|lia].
  - exact (heals_by _ dt _ s eq_refl HI HT Ho Hk Ha Hf Hdt (Z.le_refl _) C1 C2).
Qed.

(* with no dial in flight, 2 s + one latency always suffices *)
Corollary heals_backoff s :
  SInv s -> TInv s -> s_open s = true -> s_accept s = true -> s_failw s = false ->
  s_dial s = None ->
  exists m, (m <= length (s_sleeps s) + 1)%nat /\
            s_link (advs m (retry_delay + s_lat s) s) <> None /\
            s_now (advs m (retry_delay + s_lat s) s) <= s_now s + retry_delay + s_lat s.
Proof.
  intros HI HT Ho Ha Hf Hd.
  destruct (heals s (retry_delay + s_lat s) HI HT Ho Ha Hf) as [m [M1 [M2 [M3 M4]]]].
  - pose proof (ti_lat _ HT). unfold retry_delay. lia.
  - split; [intros d E; congruence|]. intros _ w Hw. pose proof (ti_sleeps _ HT w Hw). lia.
  - exists m. repeat split; auto. lia.
Qed.
