(** The integer (tenths) temperature arithmetic of Codec4.v / Codec5.v is what the binary64 code of
    at4/comms/utils.py and at5/comms/utils.py computes (base/Flt.v), on every value the wire formats
    can carry.  All floating point is in the two sweeps of FltProofs.v; what is left here is the agreement
    of Python's integer operators (Z) with the model's (N). *)
From Coq Require Import ZArith Lia.
From PV Require Import base.Bits base.Flt base.FltProofs at4.Codec4 at5.Codec5.
Open Scope Z_scope.

(* ---- decoders: the float returned is the binary64 nearest to (model tenths)/10 *)
Lemma dec_temp4_float raw : f_dec_temp4 (Z.of_N raw) = f_tenths (dec_temp raw).
Proof. unfold f_dec_temp4, f_tenths, dec_temp. now rewrite of_N_shiftr, of_N_land. Qed.
Lemma dec_set_point5_float raw : f_dec_sp5 (Z.of_N raw) = f_tenths (dec_set_point raw).
Proof. reflexivity. Qed.
Lemma dec_temp5_float raw : f_dec_temp5 (Z.of_N raw) = f_tenths (dec_temp5 raw).
Proof. reflexivity. Qed.

(* ---- encoders: on the binary64 nearest to k/10 the float code yields the model's integer *)
Lemma enc_temp4_float k : -500 <= k < 1548 ->
  exists b, f_enc_temp4 (f_tenths k) = Some b /\ 0 <= b /\ enc_temp k = Some (Z.to_N b).
Proof.
  intros H. unfold f_enc_temp4. fold (f_enc_temp5 (f_tenths k)). rewrite enc_temp5_tenths by lia.
  eexists. split; [reflexivity|]. split; [apply Z.land_nonneg; lia|].
  unfold enc_temp. destruct (Z.leb_spec 0 (k + 500)); [|lia].
  rewrite <- (Z2N.id (k + 500)) at 2 by lia.
  now rewrite <- (of_N_shiftl _ 5), <- (of_N_land _ 65504), N2Z.id.
Qed.
Lemma enc_set_point5_float k : 100 <= k < 356 ->
  exists b, f_enc_sp5 (f_tenths k) = Some b /\ 0 <= b /\ enc_set_point k = Some (Z.to_N b).
Proof.
  intros H. exists (k - 100). split; [exact (sp5_of_tenths k H)|]. split; [lia|].
  unfold enc_set_point. destruct (Z.leb_spec 0 (k - 100)); [reflexivity|lia].
Qed.
Lemma enc_temp5_float k : -1500 <= k < 1548 ->
  exists b, f_enc_temp5 (f_tenths k) = Some b /\ Z.of_N (enc_temp11 k) = Z.land b 2047.
Proof.
  intros H. exists (k + 500). split; [exact (enc_temp5_tenths k H)|].
  unfold enc_temp11. apply Z2N.id, Z.land_nonneg. now right.
Qed.
