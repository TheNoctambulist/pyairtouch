(* Codec5Proofs.v — C03 for AirTouch 5: every message in the domain encodes to a payload
   of the announced size which decodes back to the same message.
   The domain dom5 and its parts (dom_* here, is_nil, sep_free, keys_distinct, dom_str, dom_timer_state from
   Codec4Proofs), defined among the lemmas, are no proof machinery: props/C03.v, props/C04.v and spec/Command5.v
   state their theorems over them, api/ApiProofs.v proves them of what the API sends, and extract/Doms.v extracts
   dom5 for the harness. *)
From Coq Require Import NArith ZArith List Bool Lia.
From PV Require Import base.Res base.Utf8 base.ListX base.Bits at4.Msg4 at4.Codec4 at4.Codec4Proofs at5.Msg5 at5.Codec5.
Import ListNotations.
Open Scope N_scope.

(* enumerations, as in Codec4Proofs *)
Lemma zpower_ctl_rt p : zpower_ctl_of (zpower_ctl_code p) = p. Proof. destruct p; reflexivity. Qed.
Lemma zpower_rt p : zpower_of (zpower_code p) = Some p. Proof. destruct p; reflexivity. Qed.
Lemma zmethod_rt p : zmethod_of (zmethod_code p) = Some p. Proof. destruct p; reflexivity. Qed.
Lemma a5power_ctl_rt p : a5power_ctl_of (a5power_ctl_code p) = p. Proof. destruct p; reflexivity. Qed.
Lemma a5fan_ctl_rt p : a5fan_ctl_of (a5fan_ctl_code p) = p. Proof. destruct p; reflexivity. Qed.
Lemma a5power_rt p : a5power_of (a5power_code p) = Some p. Proof. destruct p; reflexivity. Qed.
Lemma a5fan_rt p : a5fan_of (a5fan_code p) = Some p. Proof. destruct p; reflexivity. Qed.
Lemma amode_ctl_rt p : amode_ctl_of (amode_ctl_code p) = p. Proof. destruct p; reflexivity. Qed.
Lemma zpower_ctl_code_lt p : zpower_ctl_code p < 2^3. Proof. destruct p; reflexivity. Qed.
Lemma zpower_code_lt p : zpower_code p < 2^2. Proof. destruct p; reflexivity. Qed.
Lemma zmethod_code_lt p : zmethod_code p < 2^1. Proof. destruct p; reflexivity. Qed.
Lemma a5power_ctl_code_lt p : a5power_ctl_code p < 2^4. Proof. destruct p; reflexivity. Qed.
Lemma a5power_code_lt p : a5power_code p < 2^4. Proof. destruct p; reflexivity. Qed.
Lemma a5fan_code_lt p : a5fan_code p < 2^4. Proof. destruct p; reflexivity. Qed.
Lemma a5fan_ctl_rt_nibble f : a5fan_ctl_of (a5fan_ctl_code f mod 2^4) = f. Proof. destruct f; reflexivity. Qed.

Lemma set_point_rt d : (100 <= d <= 355)%Z ->
  exists v, enc_set_point d = Some v /\ v < 256 /\ dec_set_point v = d.
Proof.
  intros H. unfold enc_set_point. assert (0 <=? d - 100 = true)%Z as -> by (apply Z.leb_le; lia).
  eexists. split; [reflexivity|]. split; [lia|]. unfold dec_set_point. lia.
Qed.

(* in range the sum is non-negative and below 2^11, so neither mask does anything *)
Lemma temp11_rt d : (-500 <= d <= 1547)%Z ->
  enc_temp11 d < 2048 /\ dec_temp5 (N.land (enc_temp11 d) 0x07FF) = d.
Proof.
  intros H. unfold enc_temp11. change 0x7FF%Z with (Z.ones 11). rewrite Z.land_ones, Z.mod_small by lia.
  assert (L : Z.to_N (d + 500) < 2^11) by lia.
  split; [exact L|]. rewrite (land_low _ 11 0x7FF eq_refl L). unfold dec_temp5. lia.
Qed.

Definition dom_zone_ctrl (z : zone_ctrl) : bool :=
  (zc_zone z <? 256) &&
  match zc_setting z with ZS_Damper p => p <? 256 | ZS_SetPoint d => (100 <=? d)%Z && (d <=? 355)%Z | _ => true end.

Lemma zone_ctrl_roundtrip z : dom_zone_ctrl z = true ->
  exists p, enc_zone_ctrl1 z = Some p /\ length p = 4%nat /\ dec_zone_ctrl1 p = Some z.
Proof.
  destruct z as [n pw st]. unfold dom_zone_ctrl. cbn [zc_zone zc_setting]. intros H.
  apply andb_prop in H as [Hn%N.ltb_lt Hs].
  assert (Hst : exists t v, zc_setting_code st = Some (N.shiftl t 5, v) /\ t < 2^3 /\ v < 256 /\
                 (if t =? 2 then ZS_Dec else if t =? 3 then ZS_Inc else if t =? 5 then ZS_SetPoint (dec_set_point v)
                  else if t =? 4 then ZS_Damper v else ZS_None) = st).
  { destruct st as [| | |p|d]; cbn [zc_setting_code].
    1-3: eexists; eexists; repeat split; reflexivity.
    - apply N.ltb_lt in Hs. eexists. eexists. repeat split; assumption || reflexivity.
    - rewrite andb_true_iff, !Z.leb_le in Hs. destruct (set_point_rt d ltac:(lia)) as [v [E [Hv D]]]. rewrite E.
      exists 5, v. repeat split; try assumption || reflexivity. cbn. now rewrite D. }
  destruct Hst as [t [v [Est [Ht [Hv Dst]]]]].
  assert (Hpc : zpower_ctl_code pw < 2^5) by (eapply N.lt_trans; [apply zpower_ctl_code_lt|reflexivity]).
  unfold enc_zone_ctrl1. cbn [zc_zone zc_power zc_setting]. rewrite Est. cbn [obind fst snd].
  rewrite (pack_B_ok n Hn), (pack_B_ok _ (cat_lt _ _ 5 Hpc 3 Ht)), (pack_B_ok v Hv). cbn [obind app].
  eexists. split; [reflexivity|]. split; [reflexivity|].
  unfold dec_zone_ctrl1, zc_setting_of. cbn zeta.
  rewrite (cat_low _ _ 5 Hpc), (land_low _ 3 7 eq_refl (zpower_ctl_code_lt pw)), zpower_ctl_rt by reflexivity.
  now rewrite (cat_high _ _ 5 Hpc 7), (land_low t 3 7 eq_refl Ht), Dst by reflexivity.
Qed.

(* 354: 35.5 degC encodes to 0xFF (_INVALID_SET_POINT), which the decoder reads as no set-point.  1500: the decoder
   drops a temperature above _MAXIMUM_TEMPERATURE = 150.0, the 1500 <? of zs_temp_of. *)
Definition dom_zone_status (z : zone_status) : bool :=
  (zs_zone z <? 64) && (zs_damper z <? 128) &&
  match zs_setpoint z with Some d => (100 <=? d)%Z && (d <=? 354)%Z | None => true end &&
  match zs_temp z with Some d => zs_sensor z && (-500 <=? d)%Z && (d <=? 1500)%Z | None => true end.

Lemma zone_status_roundtrip z : dom_zone_status z = true ->
  exists p, enc_zone_status1 z = Some p /\ length p = 8%nat /\ dec_zone_status1 p = Some z.
Proof.
  destruct z as [n pw spill me sensor ba temp damper sp]. unfold dom_zone_status.
  cbn [zs_zone zs_damper zs_setpoint zs_temp zs_sensor]. rewrite !andb_true_iff, !N.ltb_lt. intros [[[Hn Hd] Hsp] Ht].
  destruct (cat_field 6 2 0xC0 0x3F (zpower_code pw) n eq_refl eq_refl (zpower_code_lt pw) Hn) as [S1a [S1b S1c]].
  destruct (cat_field 7 1 0x80 0x7F (zmethod_code me) damper eq_refl eq_refl (zmethod_code_lt me) Hd) as [S2a [S2b S2c]].
  destruct (flag_alone sensor 7) as [L4 S4].
  destruct (flag_over spill 1 _ (battery_code_lt ba)) as [L7 [S7 [M7 _]]].
  unfold enc_zone_status1, zs_b1, zs_b2, zs_b4, zs_b7.
  cbn [zs_zone zs_power zs_method zs_damper zs_sensor zs_spill zs_battery].
  (* the AT5 encoders write byte 1 as lo + hi (number + shifted power); the cat lemmas of Bits.v are stated for
     hi + lo: the same turn in ac5_ctrl_roundtrip, ac5_status_roundtrip and Command5.ac5_ctrl_means *)
  rewrite (N.add_comm (N.land n 0x3F)).
  set (osp := zs_sp _).
  assert (Esp : exists v, osp = Some v /\ v < 256 /\ zs_sp_of v = sp).
  { subst osp. unfold zs_sp. cbn [zs_setpoint]. destruct sp as [d|].
    - rewrite andb_true_iff, !Z.leb_le in Hsp. assert (d =? 0 = false)%Z as -> by (apply Z.eqb_neq; lia).
      destruct (set_point_rt d ltac:(lia)) as [v [E [Hv D]]]. exists v. split; [exact E|]. split; [exact Hv|].
      unfold zs_sp_of. assert (v =? 255 = false) as ->; [|now rewrite D].
      apply N.eqb_neq. unfold dec_set_point in D. lia.
    - exists 255. repeat split; reflexivity. }
  destruct Esp as [v [-> [Hv Dv]]]. cbn [obind].
  set (t := zs_t _).
  assert (Et : t < 65536 /\ zs_temp_of sensor (t / 256 * 256 + t mod 256) = temp).
  { subst t. unfold zs_t. cbn [zs_temp]. rewrite be16_div_mod. destruct temp as [d|].
    - rewrite !andb_true_iff, !Z.leb_le in Ht. destruct Ht as [[-> Ht2] Ht3].
      destruct (temp11_rt d ltac:(lia)) as [L D]. split; [lia|].
      unfold zs_temp_of. rewrite D. cbn [negb orb].
      now assert (1500 <? d = false)%Z as -> by (apply Z.ltb_ge; lia).
    - split; [reflexivity|]. unfold zs_temp_of. replace (1500 <? dec_temp5 (N.land 2047 2047))%Z with true by reflexivity.
      now rewrite orb_true_r. }
  destruct Et as [Ht16 Dt]. clearbody t.
  rewrite (pack_B_ok _ S1a), (pack_B_ok _ S2a), (pack_B_ok _ Hv), (pack_B_ok _ L4), (pack_H_ok _ Ht16),
          (pack_B_ok _ (N.lt_trans _ _ 256 L7 eq_refl)). cbn [obind app].
  eexists. split; [reflexivity|]. split; [reflexivity|].
  unfold dec_zone_status1. rewrite S1b, S1c, S2b, S2c, zpower_rt, zmethod_rt, (M7 1 eq_refl).
  now rewrite (land_low _ 1 1 eq_refl (battery_code_lt ba)), battery_rt, S4, S7, Dt, Dv.
Qed.

Definition dom_ac5_ctrl (c : ac5_ctrl) : bool :=
  (a5c_number c <? 16) &&
  match a5c_sp c with Some d => (100 <=? d)%Z && (d <=? 355)%Z | None => true end.

Lemma ac5_ctrl_roundtrip c : dom_ac5_ctrl c = true ->
  exists p, enc_ac5_ctrl1 c = Some p /\ length p = 4%nat /\ dec_ac5_ctrl1 p = Some c.
Proof.
  destruct c as [n pw mo fa sp]. unfold dom_ac5_ctrl. cbn [a5c_number a5c_sp]. intros H.
  apply andb_prop in H as [Hn%N.ltb_lt Hsp].
  destruct (cat_masked 4 4 0xF0 0x0F (a5power_ctl_code pw) n eq_refl eq_refl) as [S1a [S1b S1c]].
  rewrite N.mod_small in S1b, S1c by (exact Hn || apply a5power_ctl_code_lt).
  unfold enc_ac5_ctrl1, a5c_b1, a5c_b2. cbn [a5c_number a5c_power a5c_mode a5c_fan].
  rewrite (N.add_comm (N.land n 0x0F)).
  destruct (cat_masked 4 4 0xF0 0x0F (amode_ctl_code mo) (a5fan_ctl_code fa) eq_refl eq_refl) as [B2a [B2c B2b]].
  set (os := a5c_spc _).
  assert (Es : exists ct v, os = Some (ct, v) /\ ct < 256 /\ v < 256 /\
               (if ct =? 0 then Some None else if ct =? 64 then Some (Some (dec_set_point v)) else None) = Some sp).
  { subst os. unfold a5c_spc. cbn [a5c_sp]. destruct sp as [d|].
    - rewrite andb_true_iff, !Z.leb_le in Hsp. assert (d =? 0 = false)%Z as -> by (apply Z.eqb_neq; lia).
      destruct (set_point_rt d ltac:(lia)) as [v [E [Hv D]]]. rewrite E. cbn [obind].
      exists 64, v. repeat split; try reflexivity; try assumption. cbn. now rewrite D.
    - exists 0, 255. repeat split; reflexivity. }
  destruct Es as [ct [v [-> [Hct [Hv Ds]]]]]. cbn [obind fst snd].
  rewrite (pack_B_ok _ S1a), (pack_B_ok _ B2a), (pack_B_ok _ Hct), (pack_B_ok _ Hv). cbn [obind app].
  eexists. split; [reflexivity|]. split; [reflexivity|].
  unfold dec_ac5_ctrl1. rewrite Ds. cbn [obind]. now rewrite S1b, S1c, B2b, B2c, a5power_ctl_rt, amode_ctl_rt_nibble, a5fan_ctl_rt_nibble.
Qed.

Definition dom_ac5_status (a : ac5_status) : bool :=
  (a5s_number a <? 16) && (100 <=? a5s_setpoint a)%Z && (a5s_setpoint a <=? 355)%Z &&
  (-500 <=? a5s_temp a)%Z && (a5s_temp a <=? 1547)%Z && (a5s_error a <? 65536).

Lemma ac5_status_roundtrip a : dom_ac5_status a = true ->
  exists p, enc_ac5_status1 a = Some p /\ length p = 10%nat /\ dec_ac5_status1 p = Some a.
Proof.
  destruct a as [n pw mo fa tu byp spill ti sp temp er]. unfold dom_ac5_status.
  cbn [a5s_number a5s_setpoint a5s_temp a5s_error]. rewrite !andb_true_iff, !N.ltb_lt, !Z.leb_le.
  intros [[[[[Hn Hs1] Hs2] Ht1] Ht2] He].
  destruct (cat_masked 4 4 0xF0 0x0F (a5power_code pw) n eq_refl eq_refl) as [S1a [S1b S1c]].
  rewrite N.mod_small in S1b, S1c by (exact Hn || apply a5power_code_lt).
  unfold enc_ac5_status1, a5s_b1, a5s_b2.
  cbn [a5s_number a5s_power a5s_mode a5s_fan a5s_setpoint a5s_temp a5s_error].
  rewrite (N.add_comm (N.land n 0x0F)).
  destruct (cat_masked 4 4 0xF0 0x0F (amode_code mo) (a5fan_code fa) eq_refl eq_refl) as [B2a [B2c B2b]].
  rewrite N.mod_small in B2b, B2c by (apply amode_code_lt || apply a5fan_code_lt).
  set (b4 := a5s_b4 _).
  assert (Hb4 : b4 < 256 /\ bit b4 3 = tu /\ bit b4 2 = byp /\ bit b4 1 = spill /\ bit b4 0 = ti)
    by (destruct tu, byp, spill, ti; repeat split; reflexivity).
  destruct Hb4 as [B4a [B4b [B4c [B4d B4e]]]]. clearbody b4.
  destruct (set_point_rt sp ltac:(lia)) as [v [Ev [Hv Dv]]]. rewrite Ev. cbn [obind].
  destruct (temp11_rt temp ltac:(lia)) as [Lt Dt].
  rewrite (pack_B_ok _ S1a), (pack_B_ok _ B2a), (pack_B_ok _ Hv), (pack_B_ok _ B4a),
          (pack_H_ok (enc_temp11 temp) ltac:(lia)), (pack_H_ok _ He). cbn [obind app].
  eexists. split; [reflexivity|]. split; [reflexivity|].
  unfold dec_ac5_status1. rewrite S1b, S1c, B2b, B2c, a5power_rt, amode_rt, a5fan_rt. cbn [obind].
  rewrite B4b, B4c, B4d, B4e, Dv, !be16_div_mod, Dt. reflexivity.
Qed.

Definition dom_timer5 (t : timer_data) : bool :=
  (td_number t <? 256) && dom_timer_state (td_on t) && dom_timer_state (td_off t).

Lemma timer5_roundtrip t : dom_timer5 t = true ->
  exists p, enc_timer5 t = Some p /\ length p = 9%nat /\ dec_timer5 p = Some t.
Proof.
  destruct t as [n on off]. unfold dom_timer5. cbn [td_number td_on td_off]. rewrite !andb_true_iff, N.ltb_lt.
  intros [[Hn Hon] Hoff].
  unfold enc_timer5. cbn [td_number td_on td_off]. rewrite (pack_B_ok n Hn). cbn [obind].
  eexists. split; [reflexivity|]. split; [reflexivity|]. cbn [enc_timer_state app dec_timer5].
  now rewrite (timer_state_rt on Hon), (timer_state_rt off Hoff).
Qed.

Lemma dec_repeat_concat {A} (dec : list N -> option A) n : forall (rs : list (list N)) (l : list A),
  Forall (fun r => length r = n) rs ->
  (forall r tail, length r = n -> dec (r ++ tail) = dec r) ->
  sequence (map dec rs) = Some l ->
  dec_repeat (length rs) n dec (concat rs) = Some (l, []).
Proof.
  induction rs as [|r rs IH]; intros l F Hext S.
  - cbn in S. injection S as <-. reflexivity.
  - inversion F as [|? ? Hr Hrs]; subst. cbn [map sequence] in S.
    destruct (dec r) as [x|] eqn:Dr; [|discriminate]. cbn [obind] in S.
    destruct (sequence (map dec rs)) as [xs|] eqn:Srs; [|discriminate]. cbn [obind] in S. injection S as <-.
    cbn [length concat dec_repeat]. rewrite (Hext r (concat rs) eq_refl), Dr. cbn [obind].
    now rewrite skipn_app_exact, (IH xs Hrs Hext eq_refl).
Qed.

(* the record decoders look only at their own bytes *)
Ltac ext_tac := let r := fresh "r" in let tail := fresh "tail" in let Hr := fresh "Hr" in
  intros r tail Hr; repeat (destruct r as [|? r]; [try discriminate Hr; try reflexivity | try discriminate Hr]).
Lemma dec_zone_ctrl1_ext : forall r tail, length r = 4%nat -> dec_zone_ctrl1 (r ++ tail) = dec_zone_ctrl1 r.
Proof. ext_tac. Qed.
Lemma dec_zone_status1_ext : forall r tail, length r = 8%nat -> dec_zone_status1 (r ++ tail) = dec_zone_status1 r.
Proof. ext_tac. Qed.
Lemma dec_ac5_ctrl1_ext : forall r tail, length r = 4%nat -> dec_ac5_ctrl1 (r ++ tail) = dec_ac5_ctrl1 r.
Proof. ext_tac. Qed.
Lemma dec_ac5_status1_ext : forall r tail, length r = 10%nat -> dec_ac5_status1 (r ++ tail) = dec_ac5_status1 r.
Proof. ext_tac. Qed.
Lemma dec_timer5_ext : forall r tail, length r = 9%nat -> dec_timer5 (r ++ tail) = dec_timer5 r.
Proof. ext_tac. Qed.

Definition dom_c0 (s : subc05) : bool :=
  match s with
  | C_ZoneCtrl l => forallb dom_zone_ctrl l && (N.of_nat (length l) <? 65536)
  | C_ZoneStatus l => forallb dom_zone_status l && (N.of_nat (length l) <? 65536)
  | C_AcCtrl l => forallb dom_ac5_ctrl l && (N.of_nat (length l) <? 65536)
  | C_AcStatus l => forallb dom_ac5_status l && (N.of_nat (length l) <? 65536)
  | C_TimerCtrl l | C_TimerStatus l => forallb dom_timer5 l && (N.of_nat (length l) <? 65536)
  | C_ZoneStatusReq | C_AcStatusReq | C_TimerStatusReq => true
  | C_Unsupported _ _ => false
  end.

(* one record class of the 0xC0 family: id, record size n and constructor mk enter through what c0_parts,
   c0_size and dec_c0_body compute for them (three equations closed by reflexivity at each use) *)
Lemma c0_list_roundtrip {A} (enc : A -> option (list N)) (dec : list N -> option A) (dom : A -> bool) n id
      (mk : list A -> subc05) l :
  (forall r tail, length r = n -> dec (r ++ tail) = dec r) ->
  (forall a, dom a = true -> exists r, enc a = Some r /\ length r = n /\ dec r = Some a) ->
  c0_parts (mk l) = (b <- enc_list enc l ;; Some (id, 0%nat, n, length l, b)) ->
  c0_size (mk l) = Some (8 + n * length l)%nat ->
  (forall b, dec_c0_body id 0 n (length l) b = (r <- dec_repeat (length l) n dec b ;; Some (mk (fst r), snd r))) ->
  id < 256 -> N.of_nat n < 65536 ->
  forallb dom l && (N.of_nat (length l) <? 65536) = true ->
  exists p, enc_c0 (mk l) = Some p /\ c0_size (mk l) = Some (length p) /\ dec_c0 p = Some (mk l, []).
Proof.
  intros Hext RT Parts Size Body Hid Hn H. apply andb_prop in H as [Hd Hl%N.ltb_lt].
  destruct (enc_list_records enc dec dom n l RT Hd) as [rs [S1 [F [Ln S2]]]].
  unfold enc_c0. rewrite Parts. unfold enc_list. rewrite S1. cbn [obind]. unfold pack_H'.
  rewrite (pack_B_ok _ Hid), !pack_H_ok by (assumption || reflexivity). cbn [obind app].
  eexists. split; [reflexivity|]. split; [cbn [length]; now rewrite Size, (concat_length_const n rs F), Ln|].
  cbn [dec_c0]. now rewrite !be16_div_mod, !Nat2N.id, Body, <- Ln, (dec_repeat_concat dec n rs l F Hext S2).
Qed.

Theorem c0_roundtrip s : dom_c0 s = true ->
  exists p, enc_c0 s = Some p /\ c0_size s = Some (length p) /\ dec_c0 p = Some (s, []).
Proof.
  destruct s as [l|l| |l|l| |l|l| |id raw]; cbn [dom_c0]; intros H; try discriminate H.
  - exact (c0_list_roundtrip _ _ _ 4 0x20 C_ZoneCtrl l dec_zone_ctrl1_ext zone_ctrl_roundtrip
             eq_refl eq_refl (fun _ => eq_refl) eq_refl eq_refl H).
  - exact (c0_list_roundtrip _ _ _ 8 0x21 C_ZoneStatus l dec_zone_status1_ext zone_status_roundtrip
             eq_refl eq_refl (fun _ => eq_refl) eq_refl eq_refl H).
  - eexists. repeat split; reflexivity.
  - exact (c0_list_roundtrip _ _ _ 4 0x22 C_AcCtrl l dec_ac5_ctrl1_ext ac5_ctrl_roundtrip
             eq_refl eq_refl (fun _ => eq_refl) eq_refl eq_refl H).
  - exact (c0_list_roundtrip _ _ _ 10 0x23 C_AcStatus l dec_ac5_status1_ext ac5_status_roundtrip
             eq_refl eq_refl (fun _ => eq_refl) eq_refl eq_refl H).
  - eexists. repeat split; reflexivity.
  - exact (c0_list_roundtrip _ _ _ 9 0x32 C_TimerCtrl l dec_timer5_ext timer5_roundtrip
             eq_refl eq_refl (fun _ => eq_refl) eq_refl eq_refl H).
  - exact (c0_list_roundtrip _ _ _ 9 0x33 C_TimerStatus l dec_timer5_ext timer5_roundtrip
             eq_refl eq_refl (fun _ => eq_refl) eq_refl eq_refl H).
  - eexists. repeat split; reflexivity.
Qed.

Definition dom_ability5 (a : ability5) : bool :=
  (ab5_number a <? 256) && (ab5_start a <? 256) && (ab5_count a <? 256) &&
  (ab5_min_cool a <? 256) && (ab5_max_cool a <? 256) && (ab5_min_heat a <? 256) && (ab5_max_heat a <? 256) &&
  Nat.eqb (length (ab5_modes a)) 5 && Nat.eqb (length (ab5_fans a)) 8 &&
  nul_free (ab5_name a) && (N.of_nat (length (ab5_name a)) <? 17) && utf8_valid (ab5_name a).

Lemma ability5_roundtrip a : dom_ability5 a = true ->
  exists r, enc_ability5 a = Some r /\ length r = 26%nat /\ dec_ability5 r = Some a.
Proof.
  destruct a as [num name st ct modes fans c1 c2 h1 h2]. unfold dom_ability5.
  cbn [ab5_number ab5_name ab5_start ab5_count ab5_modes ab5_fans ab5_min_cool ab5_max_cool ab5_min_heat ab5_max_heat].
  rewrite !andb_true_iff, !N.ltb_lt, !Nat.eqb_eq. intros [[[[[[[[[[[Hnum Hst] Hct] Hc1] Hc2] Hh1] Hh2] Hml] Hfl] Hnf] Hl] Hu].
  destruct (bits_byte_spec modes 5 Hml ltac:(lia)) as [Lm Dm]. destruct (bits_byte_spec fans 8 Hfl ltac:(lia)) as [Lf Df].
  cbn [below seq map N.of_nat Pos.of_succ_nat Pos.succ] in Dm, Df.
  unfold enc_ability5.
  cbn [ab5_number ab5_name ab5_start ab5_count ab5_modes ab5_fans ab5_min_cool ab5_max_cool ab5_min_heat ab5_max_heat].
  rewrite (pack_B_ok _ Hnum), (pack_B_ok _ Hst), (pack_B_ok _ Hct), (pack_B_ok _ Lm), (pack_B_ok _ Lf),
          (pack_B_ok _ Hc1), (pack_B_ok _ Hc2), (pack_B_ok _ Hh1), (pack_B_ok _ Hh2).
  pose proof (cstring_pad 16 name Hnf ltac:(lia)) as Cs. pose proof (pad_to_length 16 name) as Pl.
  remember (pad_to 16 name) as pn eqn:Epn. clear Epn.
  (* 17: the 16 name bytes, and once more to close the tail, so that nth / firstn / skipn compute *)
  do 17 (destruct pn as [|? pn]; try discriminate Pl). clear Pl.
  cbn [obind app]. eexists. split; [reflexivity|]. split; [reflexivity|].
  unfold dec_ability5. cbn [firstn skipn nth]. rewrite Cs, Hu. cbn [negb]. rewrite Dm, Df. reflexivity.
Qed.

Definition dom_name5 (e : N * list N) : bool := (fst e <? 256) && dom_str 256 (snd e).

(* acc is the running total of sub5_size's fold *)
Lemma names5_roundtrip l : forallb dom_name5 l = true -> forall acc,
  exists p, enc_list enc_name5 l = Some p /\
            (acc + length p)%nat = fold_left (fun acc e => acc + length (snd e))%nat l (acc + 2 * length l)%nat /\
            (2 * length l <= length p)%nat /\
            forall fuel, (length l <= fuel)%nat -> dec_names5 fuel p = Some l.
Proof.
  induction l as [|[z name] l IH]; intros H acc.
  - exists []. split; [reflexivity|]. split; [cbn; lia|]. split; [cbn; lia|]. intros fuel _. destruct fuel; reflexivity.
  - cbn in H. unfold dom_name5 at 1, dom_str in H. cbn [fst snd] in H. rewrite !andb_true_iff, !N.ltb_lt in H.
    destruct H as [[Hz [Hlen Hu]] Hl].
    destruct (IH Hl (acc + 2 + length name)%nat) as [p [Ep [Lp [Lmin Dp]]]].
    unfold enc_list in *. cbn [map sequence]. unfold enc_name5 at 1. cbn [fst snd].
    rewrite (pack_B_ok z Hz), (pack_B_ok _ Hlen). cbn [obind].
    destruct (sequence (map enc_name5 l)) as [rs|]; [|discriminate]. cbn [obind] in *. injection Ep as <-.
    eexists. split; [reflexivity|]. cbn [concat app length]. rewrite app_length.
    split; [cbn [fold_left snd]; replace (acc + 2 * S (length l) + length name)%nat with (acc + 2 + length name + 2 * length l)%nat by lia;
            rewrite <- Lp; lia|].
    split; [lia|]. intros fuel Hf. destruct fuel as [|fuel]; [cbn in Hf; lia|].
    cbn [dec_names5]. rewrite Nat2N.id, app_length.
    assert (Nat.ltb (length name + length (concat rs)) (length name) = false) as -> by (apply Nat.ltb_ge; lia).
    rewrite firstn_app_exact, skipn_app_exact, Hu. cbn [negb].
    rewrite (Dp fuel ltac:(cbn in Hf; lia)). reflexivity.
Qed.

Definition dom_sub5 (s : sub1f5) : bool :=
  match s with
  | S5_ErrMsg ac info =>
    (ac <? 256) && match info with Some e => negb (is_nil e) && dom_str 256 e | None => true end
  | S5_ErrReq ac => ac <? 256
  | S5_Ability l => negb (is_nil l) && forallb dom_ability5 l
  | S5_AbilityReq All | S5_NamesReq All => true
  | S5_AbilityReq (Num n) | S5_NamesReq (Num n) => n <? 256
  | S5_Names l => negb (is_nil l) && forallb dom_name5 l && keys_distinct l
  | S5_QuickTimer ac _ tm => (ac <? 256) && (tm <? 1440)
  | S5_Version _ vs => negb (is_nil vs) && forallb (sep_free VERSION_SEP5) vs && dom_str 256 (join_sep VERSION_SEP5 vs)
  | S5_VersionReq => true
  | S5_Unsupported _ _ => false
  end.

Theorem sub5_roundtrip s : dom_sub5 s = true ->
  exists id body, enc_sub5 s = Some (id, body) /\
                  sub5_size s = Some (length body) /\
                  dec_sub5 id (length body) body = Some (s, []).
Proof.
  destruct s as [ac info|ac|l|a|l|a|ac t tm|up vs| |id raw]; cbn [dom_sub5]; intros H; try discriminate H.
  - (* error message *)
    apply andb_prop in H as [Hac%N.ltb_lt Hi]. unfold enc_sub5. rewrite (land_low ac 8 0xFF eq_refl Hac).
    destruct info as [[|e0 e]|]; [discriminate Hi| |eexists; eexists; repeat split; reflexivity].
    (* under a name, so that [length es] does not compute *)
    remember (e0 :: e) as es eqn:Ees. assert (Hes : (0 < length es)%nat) by (subst es; cbn; lia).
    unfold dom_str in Hi. rewrite !andb_true_iff, N.ltb_lt in Hi. destruct Hi as [_ [Hl Hu]].
    rewrite (pack_B_ok _ Hl). cbn [obind app].
    eexists. eexists. split; [reflexivity|]. split; [subst es; reflexivity|].
    unfold dec_sub5. cbn [N.eqb Pos.eqb length Nat.eqb]. rewrite Nat2N.id, firstn_all, skipn_all, Hu.
    destruct (N.eqb_spec (N.of_nat (length es)) 0); [lia|]. now subst es.
  - (* error request *)
    apply N.ltb_lt in H. unfold enc_sub5. rewrite (land_low ac 8 0xFF eq_refl H). eexists. eexists. repeat split; reflexivity.
  - (* abilities *)
    destruct (list_roundtrip enc_ability5 dec_ability5 dom_ability5 26 l ltac:(lia) ability5_roundtrip H)
      as [p [E [L [D [G0 [G1 Gm]]]]]].
    unfold enc_sub5. rewrite E. cbn [obind]. eexists. eexists. split; [reflexivity|].
    split; [cbn [sub5_size]; now rewrite L|].
    unfold dec_sub5. cbn [N.eqb Pos.eqb]. rewrite G0, G1, Gm. cbn [negb]. now rewrite firstn_all, skipn_all, D.
  - (* ability request *)
    destruct a as [|n]; [eexists; eexists; repeat split; reflexivity|].
    apply N.ltb_lt in H. unfold enc_sub5. rewrite (pack_B_ok n H). cbn [obind]. eexists. eexists. repeat split; reflexivity.
  - (* names *)
    rewrite !andb_true_iff in H. destruct H as [[Hne Hl] Hk].
    destruct (names5_roundtrip l Hl 0%nat) as [p [E [L [Lmin D]]]].
    assert (0 < length l)%nat by (destruct l; [discriminate Hne|cbn; lia]).
    unfold enc_sub5. rewrite E. cbn [obind]. eexists. eexists. split; [reflexivity|].
    split; [cbn [sub5_size]; f_equal; symmetry; exact L|].
    unfold dec_sub5. cbn [N.eqb Pos.eqb].
    (* at least two bytes: neither request form (length 0, length 1) *)
    destruct (length p) as [|[|n]] eqn:Lp; try lia. cbn [Nat.eqb]. rewrite <- Lp.
    rewrite firstn_all, skipn_all, (D (S (length p))) by lia. cbn [obind]. now rewrite (dict_of_distinct _ Hk).
  - (* names request *)
    destruct a as [|n]; [eexists; eexists; repeat split; reflexivity|].
    apply N.ltb_lt in H. unfold enc_sub5. rewrite (pack_B_ok n H). cbn [obind]. eexists. eexists. repeat split; reflexivity.
  - (* quick timer *)
    rewrite andb_true_iff, !N.ltb_lt in H. destruct H as [Hac Htm].
    unfold enc_sub5. rewrite (pack_B_ok ac Hac). cbn [obind app].
    eexists. eexists. split; [reflexivity|]. split; [reflexivity|].
    unfold dec_sub5. cbn [N.eqb Pos.eqb]. destruct t; cbn [timer_type_code N.land timer_type_of obind]; now rewrite (qt_fields tm Htm).
  - (* version *)
    unfold dom_str in H. rewrite !andb_true_iff, N.ltb_lt in H. destruct H as [[Hne Hf] [Hl Hu]].
    unfold enc_sub5. rewrite (pack_B_ok _ Hl). cbn [obind].
    eexists. eexists. split; [reflexivity|]. split; [reflexivity|].
    unfold dec_sub5. cbn [N.eqb Pos.eqb length Nat.eqb app]. rewrite Nat2N.id, firstn_all, skipn_all, Hu.
    rewrite split_join; [|destruct vs; [discriminate Hne|discriminate]|exact Hf].
    destruct up; reflexivity.
  - (* version request *)
    eexists. eexists. repeat split; reflexivity.
Qed.

Definition dom5 (m : msg5) : bool :=
  match m with
  | M5_Ext s => dom_sub5 s
  | M5_Ctl s => dom_c0 s
  | M5_Unsupported _ _ => false
  end.

Theorem msg5_roundtrip m : dom5 m = true ->
  exists p, enc5 m = Some p /\ size5 m = Some (length p) /\ dec5 (type_of5 m) p = Some m.
Proof.
  destruct m as [s|s|id raw]; cbn [dom5]; intros H; try discriminate H.
  - destruct (sub5_roundtrip s H) as [id [body [E [Sz D]]]]. cbn [enc5 size5]. rewrite E, Sz.
    eexists. split; [reflexivity|]. split; [reflexivity|].
    unfold dec5. cbn [type_of5 N.eqb Pos.eqb fst snd app]. now rewrite be16_div_mod, D.
  - destruct (c0_roundtrip s H) as [p [E [Sz D]]]. exists p. split; [exact E|]. split; [exact Sz|].
    unfold dec5. cbn [type_of5 N.eqb Pos.eqb]. now rewrite D.
Qed.
