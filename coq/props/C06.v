(* C06 — Checksum is CRC-16/MODBUS; damaged frames are never delivered. *)
From Coq Require Import NArith List Bool Lia.
From PV Require Import crc.Crc crc.CrcProofs stream.Stream stream.StreamProofs sock.Sock sock.SockProofs.
From PV Require Import observed.Obs_C06.
Import ListNotations.
Open Scope N_scope.

(* the table observed from /repo on this run (Crc16Modbus().calculate on every single
   byte) is the model's literal table *)
Theorem C06_observed_table : obs_table = table.
Proof. vm_compute. reflexivity. Qed.
Print Assumptions C06_observed_table.

(* every table entry is eight reference bit steps of its index *)
Theorem C06_table : forall i, i < 256 -> nth (N.to_nat i) table 0 = L8 i.
Proof. exact table_correct. Qed.
Print Assumptions C06_table.

Theorem C06_step : forall r b, r < 65536 -> b < 256 -> tbl_step r b = byte_step r b.
Proof.
  intros r b _ Hb. apply tbl_step_is_byte_step, (fits_lt 8), Hb.
Qed.
Print Assumptions C06_step.

(* the two check bytes are CRC-16/MODBUS (reflected 0xA001, initial 0xFFFF), high byte
   first, for EVERY byte string — induction over the bytes from the step lemma C06_step,
   which holds for every (register, byte) pair *)
Theorem C06_crc_is_modbus : forall bs, bytes_ok bs ->
  check_bytes bs = [crc_ref bs / 256; crc_ref bs mod 256].
Proof.
  intros bs H. unfold check_bytes. rewrite (crc_tbl_is_ref bs H).
  rewrite N.shiftr_div_pow2. change 255 with (N.ones 8). rewrite N.land_ones. reflexivity.
Qed.
Print Assumptions C06_crc_is_modbus.

(* span: the check bytes of a frame are computed over address .. payload, on the send
   path by definition of [frame] and on the receive path by [rx_one] *)
Theorem C06_span_send : forall g h payload,
  frame g h payload = (pre g h ++ cov h) ++ payload ++ check_bytes (cov h ++ payload).
Proof. reflexivity. Qed.
Print Assumptions C06_span_send.

Theorem C06_span_receive : forall msg dec g hb h' cd pl c1 c2 rest,
  length hb = hdr_len g -> dec_hdr g hb = Some (h', cd) -> N.to_nat (h_len h') = length pl ->
  rx_one msg dec g (hb ++ pl ++ [c1; c2] ++ rest) =
  if validate (cd ++ pl) [c1; c2]
  then match dec h' pl with Some m => RxDeliver h' m rest | None => RxReset end
  else RxReset.
Proof. intros. now apply rx_one_shape. Qed.
Print Assumptions C06_span_receive.

(* detection, checksum level.  [detectable n em eh el]: em alters the n covered bytes,
   (eh, el) the check bytes; the classes are
     - any alteration of the check bytes only (all 1..16-bit patterns there),
     - any non-zero alteration confined to one or two adjacent covered bytes,
     - any burst of <= 16 bits across three covered bytes (bit order of the CRC: LSB first),
     - any two bits of the covered bytes (n <= 4095),
     - one bit of the covered bytes and one bit of the check bytes (n <= 4093). *)
Theorem C06_detect : forall n em eh el, detectable n em eh el ->
  forall m, bytes_ok m -> length m = n ->
  validate (xor_list m em)
           [N.lxor (N.shiftr (crc_tbl m) 8) eh; N.lxor (N.land (crc_tbl m) 255) el] = false.
Proof. exact detect. Qed.
Print Assumptions C06_detect.

(* detection, frame level, both generations, any message decoder, any bytes following:
   the altered frame is rejected (the connection is reset), never delivered.  AT4: the
   pattern must not touch the length field (see C06_at4_length_flip_refuted); AT5: the
   length field is included — it no longer matches the duplicated outer length *)
Theorem C06_frame_detect : forall msg dec g h payload e0 e1 e2 e3 e4 e5 emp eh el rest,
  hdr_encodable g h = true -> bytes_ok payload -> length payload = N.to_nat (h_len h) ->
  length emp = length payload ->
  detectable (6 + length payload) ([e0; e1; e2; e3; e4; e5] ++ emp) eh el ->
  (g = AT4 -> e4 = 0 /\ e5 = 0) ->
  rx_one msg dec g (corrupt g h payload e0 e1 e2 e3 e4 e5 emp eh el ++ rest) = RxReset.
Proof. exact frame_detect. Qed.
Print Assumptions C06_frame_detect.

(* the rejection resets the connection and a new one is dialled at once; C07_heals then
   gives the reconnection and C07_receives the delivery of later intact frames *)
Theorem C06_reconnect_after_reject : forall s c,
  SInv s -> s_link s = Some c ->
  snd (step s OPeerBad) = [EClose c; ENotify false; EDial] /\
  s_link (fst (step s OPeerBad)) = None /\ s_dial (fst (step s OPeerBad)) <> None.
Proof. exact peer_bad_redials. Qed.
Print Assumptions C06_reconnect_after_reject.

(* ---- limits inherent in the vendor wire format (recorded as known findings) ---- *)
Definition rawdec (h : hdr) (p : list N) : option (N * list N) := Some (h_type h, p).

(* The check value travels high byte first, which is not the order in which a reflected
   CRC is a cyclic code: a 9-bit burst (LSB-first bit order) across the last covered byte
   and the first check byte of the vendor document's example frame is accepted. *)
Example C06_straddle_refuted :
  let good := [0x55;0x55;0x80;0xb0;0x01;0x2a;0x00;0x04;0x01;0x02;0x00;0x00;0xda;0x59] in
  let bad  := [0x55;0x55;0x80;0xb0;0x01;0x2a;0x00;0x04;0x01;0x02;0x00;0x0c;0xdf;0x59] in
  rx_one _ rawdec AT4 good = RxDeliver (mkHdr 0x80 0xb0 1 0x2a 4) (0x2a, [1; 2; 0; 0]) [] /\
  rx_one _ rawdec AT4 bad = RxDeliver (mkHdr 0x80 0xb0 1 0x2a 4) (0x2a, [1; 2; 0; 0x0c]) [].
Proof. vm_compute. split; reflexivity. Qed.
Print Assumptions C06_straddle_refuted.

(* AT4 has no redundancy for the length field: a frame whose payload embeds a shorter
   valid frame is delivered as that shorter frame after ONE bit of the length flips. *)
Example C06_at4_length_flip_refuted :
  let inner := frame AT4 (mkHdr 0xB0 0x80 7 0x2C 4) [0x40; 0x12; 0x58; 0x00] in
  let outer := frame AT4 (mkHdr 0xB0 0x80 7 0x2C 6) (skipn 8 inner) in
  let flipped := firstn 7 outer ++ [N.lxor (nth 7 outer 0) 2] ++ skipn 8 outer in
  rx_one _ rawdec AT4 outer = RxDeliver (mkHdr 0xB0 0x80 7 0x2C 6) (0x2C, skipn 8 inner) [] /\
  exists rest, rx_one _ rawdec AT4 flipped = RxDeliver (mkHdr 0xB0 0x80 7 0x2C 4) (0x2C, [0x40; 0x12; 0x58; 0x00]) rest.
Proof. vm_compute. split; [reflexivity|eexists; reflexivity]. Qed.
Print Assumptions C06_at4_length_flip_refuted.

(* non-vacuity of the detection theorem: one instance of each class on a real frame *)
Example C06_witness :
  let h := mkHdr 0x80 0xb0 1 0x2a 4 in let p := [1; 2; 0; 0] in
  detectable 10 (zeros 10) 0x05 0 /\
  detectable 10 (zeros 9 ++ [0x0c] ++ zeros 0) 0 0 /\
  detectable 10 (zeros 3 ++ [0x80; 0xff; 0x7f] ++ zeros 4) 0 0 /\
  detectable 10 (xor_list (bit_at 10 0 0) (bit_at 10 9 7)) 0 0 /\
  detectable 10 (bit_at 10 9 7) (N.shiftr (2 ^ 15) 8) (N.land (2 ^ 15) 255) /\
  rx_one _ rawdec AT4 (corrupt AT4 h p 0 0 0 0 0 0 [0; 0; 0; 0x0c] 0 0) = RxReset.
Proof.
  repeat split.
  - apply DetCheckOnly; [reflexivity|reflexivity|left; discriminate].
  - apply (DetWindow1 10 9 0 0x0c); [reflexivity|split; reflexivity].
  - apply (DetBurst3 10 3 4 7 1 0xff 0x7f); [reflexivity|split; discriminate|reflexivity|reflexivity|reflexivity|left; discriminate].
  - apply DetTwoBits; try reflexivity; try lia.
  - apply DetBitAndCheckBit; try reflexivity; lia.
Qed.
Print Assumptions C06_witness.
