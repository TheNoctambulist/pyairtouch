(* C14 — State is refreshed after every reconnection and after AT4 group silence. *)
From Coq Require Import NArith ZArith List Bool Lia.
From PV Require Import base.Res at4.Msg4 at5.Msg5 api.Core api.CoreProofs api.Client4 api.Client5 api.ClientProofs
  api.Poll api.PollProofs.
Import ListNotations.

(* ---- every connected notification outside the initial CONNECTING state - in particular
   every reconnection of an initialised client - requests AC status and zone / group status,
   in that order (sent with the connected-only policy; with C01 they are the first frames of
   the new link after any retried commands; with C10 the answers then overwrite the model) *)
Theorem C14_reconnect_refreshes : forall ZS AS AB TD (c : client ZS AS AB TD), c_state _ _ _ _ c <> Connecting ->
  on_connected ZS AS AB TD c = (c, [OSendReq RAcStatus; OSendReq RZoneStatus]).
Proof. intros. now apply reconnect_refreshes. Qed.
Print Assumptions C14_reconnect_refreshes.

(* ---- a refresh that returns unchanged data calls no subscriber (zone status; the AC status
   case is C12_no_echo_ac) *)
Theorem C14_quiet_refresh_4 : forall l (c : client4),
  (forall s, In s l -> exists z, find_zone _ (c_zones _ _ _ _ c) (gs_group s) = Some z /\ z_status _ z = s) ->
  NoDup (map gs_group l) ->
  snd (proc_zone_status _ _ _ _ gs_group group_status_eqb c l) = [].
Proof. intros l c H _. exact (proc_zone_status_unchanged _ _ _ _ _ _ group_status_eqb_refl l c H). Qed.
Print Assumptions C14_quiet_refresh_4.

Theorem C14_quiet_refresh_5 : forall l (c : client5),
  (forall s, In s l -> exists z, find_zone _ (c_zones _ _ _ _ c) (zs_zone s) = Some z /\ z_status _ z = s) ->
  NoDup (map zs_zone l) ->
  snd (proc_zone_status _ _ _ _ zs_zone zone_status_eqb c l) = [].
Proof. intros l c H _. exact (proc_zone_status_unchanged _ _ _ _ _ _ zone_status_eqb_refl l c H). Qed.
Print Assumptions C14_quiet_refresh_5.

Open Scope Z_scope.
(* ---- the AirTouch 4 group-status poll (ticks of 1/1024 s; period = 300 s) *)
Definition PERIOD : Z := 300 * 1024.

(* the deadline passes while connected: a group status request exactly at the deadline, and
   the deadline is armed again one period later *)
Theorem C14_poll_fires : forall s dt, p_run s = true -> p_dead s <= p_now s + dt ->
  pstep PERIOD s (PAdv dt true) = (mkP true (p_dead s + PERIOD) (p_dead s), [PRequest (p_dead s); PTime (p_dead s)]).
Proof. intros. now apply poll_fires. Qed.
Print Assumptions C14_poll_fires.

(* for as long as the silence lasts: k passages of the deadline give requests at
   d, d + 300 s, ..., d + (k-1) * 300 s, for every k *)
Theorem C14_poll_repeats : forall k s big, p_run s = true -> p_now s <= p_dead s -> PERIOD <= big ->
  p_dead s <= p_now s + big ->
  requests (snd (prun PERIOD s (silent_advances k big))) = arith k (p_dead s) PERIOD.
Proof. intros. now apply poll_repeats. Qed.
Print Assumptions C14_poll_repeats.

(* a group status re-arms the deadline 300 s from its arrival *)
Theorem C14_poll_rearmed : forall s, p_run s = true -> pstep PERIOD s PSeen = (mkP true (p_now s + PERIOD) (p_now s), []).
Proof. intros. now apply poll_seen. Qed.
Print Assumptions C14_poll_rearmed.

(* while group statuses keep arriving before the deadline, nothing is requested *)
Theorem C14_poll_quiet : forall ops s, early PERIOD s ops -> requests (snd (prun PERIOD s ops)) = [].
Proof. intros. now apply poll_quiet. Qed.
Print Assumptions C14_poll_quiet.

(* non-vacuity: initialised at t = 0, a group status at 100 s, then silence: requests at 400,
   700 and 1000 s *)
Example C14_witness :
  requests (snd (prun PERIOD pinit [PStart; PAdv (100 * 1024) true; PSeen; PAdv (400 * 1024) true; PAdv (400 * 1024) true;
                                     PAdv (400 * 1024) true; PAdv (50 * 1024) true]))
  = [400 * 1024; 700 * 1024; 1000 * 1024].
Proof. vm_compute. reflexivity. Qed.
