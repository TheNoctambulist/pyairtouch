(* C13 — Reception is independent of TCP segmentation. *)
From Coq Require Import NArith List Bool Lia.
From PV Require Import crc.Crc stream.Stream stream.StreamProofs.
Import ListNotations.

(* For every generation, every message decoder, every receiver state reached between
   segments, and EVERY way of cutting a byte stream into chunks (including empty chunks,
   single bytes, cuts inside prefixes, length fields and check bytes, many frames per
   chunk): the deliveries (header and message, in order, once each) and the final state
   (bytes still buffered, or dead after a reset) are those of the unsegmented stream. *)
Theorem C13_segmentation : forall (msg : Type) (dec : hdr -> list N -> option msg) g chunks st,
  settled msg dec g st ->
  feed_all msg dec g st chunks = feed msg dec g st (concat chunks).
Proof. exact segmentation_independent. Qed.
Print Assumptions C13_segmentation.

(* the hypothesis holds initially and after every feed *)
Theorem C13_settled_initial : forall msg dec g, settled msg dec g (Some []).
Proof. intros msg dec g b H. inversion H; subst. destruct g; reflexivity. Qed.
Print Assumptions C13_settled_initial.

Theorem C13_settled_preserved : forall msg dec g st c, settled msg dec g (snd (feed msg dec g st c)).
Proof. exact feed_settled. Qed.
Print Assumptions C13_settled_preserved.

(* a decision once taken never depends on bytes that arrive later *)
Theorem C13_deliver_stable : forall msg dec g buf more h m rest,
  rx_one msg dec g buf = RxDeliver h m rest -> rx_one msg dec g (buf ++ more) = RxDeliver h m (rest ++ more).
Proof. intros msg dec g buf more h m rest H. now rewrite rx_one_stable, H by (rewrite H; discriminate). Qed.
Print Assumptions C13_deliver_stable.

(* each frame the send path can produce is delivered exactly once with nothing left *)
Theorem C13_frame_delivered : forall msg dec g h payload rest m,
  hdr_encodable g h = true -> length payload = N.to_nat (h_len h) -> dec h payload = Some m ->
  rx_one msg dec g (frame g h payload ++ rest) = RxDeliver h m rest.
Proof. intros msg dec g h p rest m _ Hl Hd. now rewrite rx_one_framed, Hd. Qed.
Print Assumptions C13_frame_delivered.

(* non-vacuity: two AT4 frames and one AT5 frame cut byte by byte and at odd places *)
Definition raw (h : hdr) (p : list N) : option (N * list N) := Some (h_type h, p).
Definition f1 := frame AT4 (mkHdr 0xB0 0x80 1 0x2B 6) [0x40; 0x80; 0x96; 0x80; 0x02; 0xE7]%N.
Definition f2 := frame AT4 (mkHdr 0xB0 0x90 2 0x1F 2) [0xFF; 0x30]%N.
Example C13_witness :
  let s := f1 ++ f2 in
  fst (feed_all _ raw AT4 (Some []) (map (fun b => [b]) s)) =
    [(mkHdr 0xB0 0x80 1 0x2B 6, (0x2B, [0x40; 0x80; 0x96; 0x80; 0x02; 0xE7]));
     (mkHdr 0xB0 0x90 2 0x1F 2, (0x1F, [0xFF; 0x30]))]%N /\
  feed_all _ raw AT4 (Some []) [firstn 3 s; []; firstn 9 (skipn 3 s); skipn 12 s] =
  feed _ raw AT4 (Some []) s.
Proof. vm_compute. split; reflexivity. Qed.
Print Assumptions C13_witness.
