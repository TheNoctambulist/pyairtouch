(* C05 — Status frames are interpreted as the vendor protocol defines. *)
From Coq Require Import NArith ZArith List Bool Lia.
From PV Require Import base.Res base.Utf8 at4.Msg4 at4.Codec4 at5.Msg5 at5.Codec5 at5.Codec5Proofs
  spec.Spec4 spec.Spec5 spec.Conform4 spec.Conform5.
Import ListNotations.
Open Scope N_scope.

(* Spec4.v / Spec5.v transcribe the two vendor documents (bit tables, bytes from 1, bits
   8..1, division/remainder); Codec4.v / Codec5.v model the Python decoders.  Each theorem
   quantifies over EVERY value of every byte of a record. *)

(* ---- AirTouch 4 group status: every field equals the document's reading; the only
   rejected records are those with the undefined power code 10 *)
Theorem C05_at4_group_status : forall b1 b2 b3 b4 b5 b6,
  b1 < 256 -> b2 < 256 -> b3 < 256 -> b4 < 256 -> b5 < 256 -> b6 < 256 ->
  let s := read_group_status b1 b2 b3 b4 b5 b6 in
  match dec_group_status1 [b1; b2; b3; b4; b5; b6] with
  | Some g => group_status_agrees g s
  | None => sg_power s = Undefined
  end.
Proof. intros. apply conf_group_status; assumption. Qed.
Print Assumptions C05_at4_group_status.

(* ---- AirTouch 4 AC status.  PARTIAL: the temperature clause holds unless byte 5 is the
   not-available sentinel ... *)
Theorem C05_at4_ac_status_partial : forall b1 b2 b3 b4 b5 b6 b7 b8,
  b1 < 256 -> b2 < 256 -> b3 < 256 -> b4 < 256 -> b5 < 256 -> b6 < 256 -> b7 < 256 -> b8 < 256 ->
  let s := read_ac_status b1 b2 b3 b4 b5 b6 b7 b8 in
  match dec_ac_status1 [b1; b2; b3; b4; b5; b6; b7; b8] with
  | Some a => ac_status_agrees a s b5
  | None => sa_power s = NotAvailable \/ sa_mode s = NotAvailable \/ sa_fan s = NotAvailable
  end.
Proof. intros. apply conf_ac_status_partial; assumption. Qed.
Print Assumptions C05_at4_ac_status_partial.

(* ... and the full statement is false of the code (known finding, trigger "at4-ac-temp-ff") *)
Theorem C05_at4_ac_status_temp_refuted :
  exists a, dec_ac_status1 [0x40; 0x42; 0x1A; 0; 0xFF; 0; 0; 0] = Some a /\
            sa_temp (read_ac_status 0x40 0x42 0x1A 0 0xFF 0 0 0) = NotAvailable /\ as_temp a = 1540%Z.
Proof. exact conf_ac_status_temp_refuted. Qed.
Print Assumptions C05_at4_ac_status_temp_refuted.

(* ---- AirTouch 4 AC ability records, old format (24 bytes) and new format (26 bytes with
   the group display bitmap, little-endian, bit g <-> group g) *)
Theorem C05_at4_ability : forall r,
  Forall (fun b => b < 256) r ->
  (length r = 24%nat /\ byte r 1 <> 24) \/ (length r = 26%nat /\ byte r 1 = 24) ->
  match dec_abilities 2 r with
  | Some [a] => ability_agrees a (read_ability r)
  | Some _ => False
  | None => utf8_valid (sb_name (read_ability r)) = false
  end.
Proof.
  intros r Hb. apply conf_ability. unfold byte.
  destruct (nth_in_or_default 24 r 0) as [I| ->]; [exact (proj1 (Forall_forall _ r) Hb _ I)|reflexivity].
Qed.
Print Assumptions C05_at4_ability.

Theorem C05_at4_group_name : forall r, length r = 9%nat ->
  match dec_name1 r with
  | Some e => e = read_group_name r
  | None => utf8_valid (snd (read_group_name r)) = false
  end.
Proof. intros r H. apply conf_group_name. lia. Qed.
Print Assumptions C05_at4_group_name.

Theorem C05_at4_error_info : forall b, (2 <= length b)%nat -> (2 + N.to_nat (byte b 1) <= length b)%nat ->
  match dec_sub 0xFF10 (length b) b with
  | Some (S_ErrMsg ac info, rest) => (ac, info) = read_error_info b /\ rest = skipn (2 + N.to_nat (byte b 1)) b
  | Some _ => False
  | None => exists e, snd (read_error_info b) = Some e /\ utf8_valid e = false
  end.
Proof. intros b H _. exact (conf_error_info b H). Qed.
Print Assumptions C05_at4_error_info.

Theorem C05_at4_version : forall b, (2 <= length b)%nat ->
  match dec_sub 0xFF30 (length b) b with
  | Some (S_Version up vs, rest) => (up, vs) = read_version VERSION_SEP b
  | Some _ => False
  | None => utf8_valid (firstn (N.to_nat (byte b 1)) (skipn 2 b)) = false
  end.
Proof. exact conf_version. Qed.
Print Assumptions C05_at4_version.

(* repeated AirTouch 4 records: record i is bytes [i*n, (i+1)*n) *)
Theorem C05_at4_repeat : forall (A : Type) (f : list N -> option A) n (rs : list (list N)) l,
  (0 < n)%nat -> Forall (fun r => length r = n) rs ->
  dec_list n f (concat rs) = Some l -> sequence (map f rs) = Some l.
Proof. exact @conf_repeat. Qed.
Print Assumptions C05_at4_repeat.

(* ---- AirTouch 5 zone status *)
Theorem C05_at5_zone_status : forall b1 b2 b3 b4 b5 b6 b7 b8,
  b1 < 256 -> b2 < 256 -> b3 < 256 -> b4 < 256 -> b5 < 256 -> b6 < 256 -> b7 < 256 ->
  let s := read_zone_status b1 b2 b3 b4 b5 b6 b7 in
  match dec_zone_status1 [b1; b2; b3; b4; b5; b6; b7; b8] with
  | Some z => zone_status_agrees z s
  | None => sz_power s = Undefined
  end.
Proof. intros. apply conf_zone_status; assumption. Qed.
Print Assumptions C05_at5_zone_status.

(* ---- AirTouch 5 AC status, for any record tail (stride 8, 10 or longer).  PARTIAL: the
   set-point / temperature clauses hold for raw values 0..250 / 0..2000 ... *)
Theorem C05_at5_ac_status_partial : forall b1 b2 b3 b4 b5 b6 b7 b8 tail,
  b1 < 256 -> b2 < 256 -> b3 < 256 -> b4 < 256 -> b5 < 256 -> b6 < 256 -> b7 < 256 -> b8 < 256 ->
  let s := read_ac5_status b1 b2 b3 b4 b5 b6 b7 b8 in
  match dec_ac5_status1 ([b1; b2; b3; b4; b5; b6; b7; b8] ++ tail) with
  | Some a => ac5_status_agrees a s b3 b5 b6
  | None => s5_power s = NotAvailable \/ s5_mode s = NotAvailable \/ s5_fan s = NotAvailable
  end.
Proof. intros. apply conf_ac5_status_partial; assumption. Qed.
Print Assumptions C05_at5_ac_status_partial.

(* ... and the full statement is false of the code (known findings, triggers
   "at5-ac-setpoint-na", "at5-ac-temp-na") *)
Theorem C05_at5_ac_status_refuted :
  exists a, dec_ac5_status1 [0x10; 0x12; 0xFF; 0xC0; 0x07; 0xFF; 0; 0] = Some a /\
            s5_setpoint (read_ac5_status 0x10 0x12 0xFF 0xC0 0x07 0xFF 0 0) = NotAvailable /\ a5s_setpoint a = 355%Z /\
            s5_temp (read_ac5_status 0x10 0x12 0xFF 0xC0 0x07 0xFF 0 0) = NotAvailable /\ a5s_temp a = 1547%Z.
Proof. exact conf_ac5_status_refuted. Qed.
Print Assumptions C05_at5_ac_status_refuted.

(* ---- announced strides are honoured: record i at offset i * stride, known prefix only,
   shorter strides rejected *)
Theorem C05_at5_stride : forall (A : Type) (f : list N -> option A) stride count b l rest,
  dec_repeat count stride f b = Some (l, rest) ->
  length l = count /\ rest = skipn (count * stride) b /\
  forall i, (i < count)%nat -> option_map Some (nth_error l i) = option_map f (Some (skipn (i * stride) b)).
Proof. exact @conf_stride. Qed.
Print Assumptions C05_at5_stride.

Theorem C05_at5_zone_prefix : forall r tail, length r = 8%nat -> dec_zone_status1 (r ++ tail) = dec_zone_status1 r.
Proof. exact dec_zone_status1_ext. Qed.
Print Assumptions C05_at5_zone_prefix.

Theorem C05_at5_short_stride : forall id nrl rl rc b,
  (id = 0x21 \/ id = 0x23) -> (0 < rl < 8)%nat -> dec_c0_body id nrl rl rc b = None.
Proof. exact conf_short_stride. Qed.
Print Assumptions C05_at5_short_stride.

(* ---- AirTouch 5 ability, zone names, error information, version *)
Theorem C05_at5_ability : forall r, Forall (fun b => b < 256) r -> length r = 26%nat ->
  match dec_ability5 r with
  | Some a => ability5_agrees a (read_ability5 r)
  | None => utf8_valid (s5b_name (read_ability5 r)) = false
  end.
Proof. intros r _ _. apply conf_ability5. Qed.
Print Assumptions C05_at5_ability.

Theorem C05_at5_zone_names : forall fuel b l, dec_names5 fuel b = Some l -> read_zone_names fuel b = Some l.
Proof. exact conf_zone_names. Qed.
Print Assumptions C05_at5_zone_names.

Theorem C05_at5_zone_names_reject : forall fuel b, (length b <= fuel)%nat -> dec_names5 fuel b = None ->
  read_zone_names fuel b = None \/
  exists l, read_zone_names fuel b = Some l /\ existsb (fun e => negb (utf8_valid (snd e))) l = true.
Proof. intros fuel b _. apply conf_zone_names_reject. Qed.
Print Assumptions C05_at5_zone_names_reject.

Theorem C05_at5_error_info : forall b, (2 <= length b)%nat -> (2 + N.to_nat (byte b 1) <= length b)%nat ->
  match dec_sub5 0xFF10 (length b) b with
  | Some (S5_ErrMsg ac info, rest) => (ac, info) = read_error_info b /\ rest = skipn (2 + N.to_nat (byte b 1)) b
  | Some _ => False
  | None => exists e, snd (read_error_info b) = Some e /\ utf8_valid e = false
  end.
Proof. intros b H _. exact (conf_error_info5 b H). Qed.
Print Assumptions C05_at5_error_info.

Theorem C05_at5_version : forall b, (2 <= length b)%nat ->
  match dec_sub5 0xFF30 (length b) b with
  | Some (S5_Version up vs, rest) => (up, vs) = read_version VERSION_SEP5 b
  | Some _ => False
  | None => utf8_valid (firstn (N.to_nat (byte b 1)) (skipn 2 b)) = false
  end.
Proof. exact conf_version5. Qed.
Print Assumptions C05_at5_version.

(* non-vacuity: the vendor documents' own example records *)
Example C05_doc_examples :
  (* AT4 group 2 of the example response: on, 100 %, set-point 26, sensor, 28.0 degC *)
  dec_group_status1 [0x41; 0xE4; 0x1A; 0x80; 0x61; 0x80] =
    Some (mkGS 1 GPS_On GMS_Temperature false false true Bat_Normal (Some 280%Z) 100 (Some 26)) /\
  (* AT5 zone 1 of the example response: on, temperature control, set-point 25.0, 24.3 degC *)
  dec_zone_status1 [0x40; 0x80; 0x96; 0x80; 0x02; 0xE7; 0x00; 0x00] =
    Some (mkZS 0 ZPS_On false ZMS_Temperature true Bat_Normal (Some 243%Z) 0 (Some 250%Z)) /\
  (* AT5 AC 0 of the example response: on, heat, low, 22.0, 23.0 degC *)
  dec_ac5_status1 [0x10; 0x12; 0x78; 0xC0; 0x02; 0xDA; 0; 0; 0x80; 0] =
    Some (mkA5S 0 A5S_On AMS_Heat A5FS_Low false false false false 220%Z 230%Z 0).
Proof. vm_compute. repeat split; reflexivity. Qed.
