(* C17 — Unknown and malformed input is tolerated, never misread. *)
From Coq Require Import NArith ZArith List Bool Lia.
From PV Require Import base.Res crc.Crc stream.Stream stream.StreamProofs stream.Wire stream.Tolerant
  at4.Msg4 at4.Codec4 at5.Msg5 at5.Codec5 at5.Codec5Proofs sock.Sock sock.SockProofs.
Import ListNotations.
Open Scope N_scope.

(* ---- every unregistered message type byte, every payload: delivered as an unsupported
   message carrying the payload unchanged; the reader stays alive (RxDeliver, not RxReset)
   and the bytes after the frame are untouched *)
Theorem C17_unknown_type_4 : forall h p rest, hdr_encodable AT4 h = true -> length p = N.to_nat (h_len h) ->
  registered4 (h_type h) = false ->
  rx_one msg4 rdec4 AT4 (frame AT4 h p ++ rest) = RxDeliver h (M_Unsupported (h_type h) p) rest.
Proof. intros h p rest _ Hl Hr. rewrite rx_one_framed by exact Hl. unfold rdec4. now rewrite unknown_type4. Qed.
Print Assumptions C17_unknown_type_4.

Theorem C17_unknown_type_5 : forall h p rest, hdr_encodable AT5 h = true -> length p = N.to_nat (h_len h) ->
  registered5 (h_type h) = false ->
  rx_one msg5 rdec5 AT5 (frame AT5 h p ++ rest) = RxDeliver h (M5_Unsupported (h_type h) p) rest.
Proof. intros h p rest _ Hl Hr. rewrite rx_one_framed by exact Hl. unfold rdec5. now rewrite unknown_type5. Qed.
Print Assumptions C17_unknown_type_5.

(* ---- every unregistered sub-type of the 0x1F wrapper (both generations) and of the 0xC0
   wrapper (any pad byte, lengths consistent with the body) *)
Theorem C17_unknown_sub_4 : forall i1 i0 b, i1 < 256 -> i0 < 256 -> registered_sub4 (i1 * 256 + i0) = false ->
  dec4 0x1F (i1 :: i0 :: b) = Some (M_Ext (S_Unsupported (i1 * 256 + i0) b)).
Proof. intros i1 i0 b _ _. apply unknown_sub4. Qed.
Print Assumptions C17_unknown_sub_4.

Theorem C17_unknown_sub_5 : forall i1 i0 b, i1 < 256 -> i0 < 256 -> registered_sub5 (i1 * 256 + i0) = false ->
  dec5 0x1F (i1 :: i0 :: b) = Some (M5_Ext (S5_Unsupported (i1 * 256 + i0) b)).
Proof. intros i1 i0 b _ _. apply unknown_sub5. Qed.
Print Assumptions C17_unknown_sub_5.

Theorem C17_unknown_c0 : forall id pad n1 n0 l1 l0 c1 c0 body,
  registered_c0 id = false ->
  length body = (N.to_nat (n1 * 256 + n0) + N.to_nat (c1 * 256 + c0) * N.to_nat (l1 * 256 + l0))%nat ->
  dec5 0xC0 (id :: pad :: n1 :: n0 :: l1 :: l0 :: c1 :: c0 :: body) = Some (M5_Ctl (C_Unsupported id body)).
Proof. exact unknown_c0. Qed.
Print Assumptions C17_unknown_c0.

(* ---- status records longer than the known layout are decoded from their known prefix
   (with C05_at5_stride: record i at offset i * stride) *)
Theorem C17_long_stride_zone : forall r tail, length r = 8%nat -> dec_zone_status1 (r ++ tail) = dec_zone_status1 r.
Proof. exact dec_zone_status1_ext. Qed.
Print Assumptions C17_long_stride_zone.

Theorem C17_long_stride_timer : forall r tail, length r = 9%nat -> dec_timer5 (r ++ tail) = dec_timer5 r.
Proof. exact dec_timer5_ext. Qed.
Print Assumptions C17_long_stride_timer.

(* ---- arbitrary bytes: whatever the reader delivers is the decoding (C05: the documented
   reading) of the payload of a frame whose header parsed and whose check bytes validated *)
Theorem C17_never_misread : forall (msg : Type) (dec : hdr -> list N -> option msg) g buf h m rest,
  rx_one msg dec g buf = RxDeliver h m rest ->
  exists cd payload chk,
    dec_hdr g (firstn (hdr_len g) buf) = Some (h, cd) /\
    payload = firstn (N.to_nat (h_len h)) (skipn (hdr_len g) buf) /\
    chk = firstn 2 (skipn (N.to_nat (h_len h)) (skipn (hdr_len g) buf)) /\
    validate (cd ++ payload) chk = true /\
    dec h payload = Some m /\
    rest = skipn (N.to_nat (h_len h) + 2) (skipn (hdr_len g) buf).
Proof. exact deliver_inv. Qed.
Print Assumptions C17_never_misread.

(* ---- a well-framed payload the decoder rejects (whatever the exception class) resets
   the connection: never delivered, never a third outcome ... *)
Theorem C17_reject_is_reset : forall (msg : Type) (dec : hdr -> list N -> option msg) g h p rest,
  hdr_encodable g h = true -> length p = N.to_nat (h_len h) -> dec h p = None ->
  rx_one msg dec g (frame g h p ++ rest) = RxReset.
Proof. intros msg dec g h p rest _ Hl Hd. now rewrite rx_one_framed, Hd. Qed.
Print Assumptions C17_reject_is_reset.

(* ... and the client recovers: the reset closes the link and dials again at once
   (C07_heals gives the reconnection, C13/C03 the delivery of later intact frames) *)
Theorem C17_recovers : forall s c,
  SInv s -> s_link s = Some c ->
  snd (step s OPeerBad) = [EClose c; ENotify false; EDial] /\
  s_link (fst (step s OPeerBad)) = None /\ s_dial (fst (step s OPeerBad)) <> None.
Proof. exact peer_bad_redials. Qed.
Print Assumptions C17_recovers.

(* non-vacuity: an unknown type, an unknown 0x1F sub-type and an unknown 0xC0 sub-type *)
Example C17_witness :
  registered4 0x99 = false /\ registered5 0x2B = false /\
  dec4 0x1F [0xFF; 0x77; 1; 2; 3] = Some (M_Ext (S_Unsupported 0xFF77 [1; 2; 3])) /\
  dec5 0xC0 [0x41; 0; 0; 1; 0; 2; 0; 3; 9; 1; 2; 3; 4; 5; 6] = Some (M5_Ctl (C_Unsupported 0x41 [9; 1; 2; 3; 4; 5; 6])).
Proof. vm_compute. repeat split; reflexivity. Qed.
