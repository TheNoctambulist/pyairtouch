(* C10 — The object model always shows the console's latest report. *)
From Coq Require Import NArith ZArith List Bool Lia.
From PV Require Import base.Res at4.Msg4 at5.Msg5 api.ApiTypes api.Api4 api.Api5 api.ApiProofs
  api.Core api.CoreProofs api.Client4 api.Client5 api.ClientProofs.
Import ListNotations.
Open Scope N_scope.

(* latest d id l: the most recent record about entity id in l, d if there is none.  The
   getters of Api4.v / Api5.v (g4_..., g5_..., gz4_..., gz5_...) are functions of the stored records. *)

(* ---- AirTouch 4, for EVERY list of AC status records (any order, repeats, subsets,
   unknown AC numbers): each known AC ends up holding the latest record addressed to it, no
   AC is created, and ability / zone list / timer report / subscribers are untouched *)
Theorem C10_at4_ac_status_latest : forall l (c : client4) id,
  (forall a, find_ac _ _ _ (c_acs _ _ _ _ c) id = Some a -> a_id _ _ _ a = as_number (a_status _ _ _ a)) ->
  match find_ac _ _ _ (c_acs _ _ _ _ c) id with
  | None => find_ac _ _ _ (c_acs _ _ _ _ (fst (proc_ac_status _ _ _ _ as_number ac_status_eqb (fun s => negb (as_error s =? 0)) c l))) id = None
  | Some a => exists a', find_ac _ _ _ (c_acs _ _ _ _ (fst (proc_ac_status _ _ _ _ as_number ac_status_eqb (fun s => negb (as_error s =? 0)) c l))) id = Some a' /\
                         a_status _ _ _ a' = latest as_number (a_status _ _ _ a) id l /\ same_but_status _ _ _ a a'
  end.
Proof. intros l c id _. apply proc_ac_status_latest. Qed.
Print Assumptions C10_at4_ac_status_latest.

Theorem C10_at5_ac_status_latest : forall l (c : client5) id,
  (forall a, find_ac _ _ _ (c_acs _ _ _ _ c) id = Some a -> a_id _ _ _ a = a5s_number (a_status _ _ _ a)) ->
  match find_ac _ _ _ (c_acs _ _ _ _ c) id with
  | None => find_ac _ _ _ (c_acs _ _ _ _ (fst (proc_ac_status _ _ _ _ a5s_number ac5_status_eqb (fun s => negb (a5s_error s =? 0)) c l))) id = None
  | Some a => exists a', find_ac _ _ _ (c_acs _ _ _ _ (fst (proc_ac_status _ _ _ _ a5s_number ac5_status_eqb (fun s => negb (a5s_error s =? 0)) c l))) id = Some a' /\
                         a_status _ _ _ a' = latest a5s_number (a_status _ _ _ a) id l /\ same_but_status _ _ _ a a'
  end.
Proof. intros l c id _. apply proc_ac_status_latest. Qed.
Print Assumptions C10_at5_ac_status_latest.

(* ---- zones / groups likewise *)
Theorem C10_at4_zone_status_latest : forall l (c : client4) id,
  (forall z, find_zone _ (c_zones _ _ _ _ c) id = Some z -> z_id _ z = gs_group (z_status _ z)) ->
  match find_zone _ (c_zones _ _ _ _ c) id with
  | None => find_zone _ (c_zones _ _ _ _ (fst (proc_zone_status _ _ _ _ gs_group group_status_eqb c l))) id = None
  | Some z => exists z', find_zone _ (c_zones _ _ _ _ (fst (proc_zone_status _ _ _ _ gs_group group_status_eqb c l))) id = Some z' /\
                         z_status _ z' = latest gs_group (z_status _ z) id l /\
                         z_id _ z' = z_id _ z /\ z_name _ z' = z_name _ z /\ z_subs _ z' = z_subs _ z
  end.
Proof. intros l c id _. apply proc_zone_status_latest. Qed.
Print Assumptions C10_at4_zone_status_latest.

Theorem C10_at5_zone_status_latest : forall l (c : client5) id,
  (forall z, find_zone _ (c_zones _ _ _ _ c) id = Some z -> z_id _ z = zs_zone (z_status _ z)) ->
  match find_zone _ (c_zones _ _ _ _ c) id with
  | None => find_zone _ (c_zones _ _ _ _ (fst (proc_zone_status _ _ _ _ zs_zone zone_status_eqb c l))) id = None
  | Some z => exists z', find_zone _ (c_zones _ _ _ _ (fst (proc_zone_status _ _ _ _ zs_zone zone_status_eqb c l))) id = Some z' /\
                         z_status _ z' = latest zs_zone (z_status _ z) id l /\
                         z_id _ z' = z_id _ z /\ z_name _ z' = z_name _ z /\ z_subs _ z' = z_subs _ z
  end.
Proof. intros l c id _. apply proc_zone_status_latest. Qed.
Print Assumptions C10_at5_zone_status_latest.

(* ---- translation tables: every defined protocol value has an entry (the getters are
   total functions of the decoded enums), and they say what the API promises *)
Theorem C10_mode_tables : forall m,
  selected_mode4 m = (if auto_variant m then PM_Auto else mode_in_effect m) /\ active_mode4 m = mode_in_effect m.
Proof. exact mode_tables. Qed.
Print Assumptions C10_mode_tables.

Theorem C10_at5_fan_tables : forall f,
  selected_fan5 f = (if ia_variant f then PF_IntelligentAuto else speed_in_effect f) /\ active_fan5 f = speed_in_effect f.
Proof. exact fan_tables5. Qed.
Print Assumptions C10_at5_fan_tables.

Theorem C10_at5_limits_follow_mode : forall a,
  match a5s_mode (a5_status a) with
  | AMS_Heat => g5_min_target a = ab5_min_heat (a5_ability a) /\ g5_max_target a = ab5_max_heat (a5_ability a)
  | AMS_Cool => g5_min_target a = ab5_min_cool (a5_ability a) /\ g5_max_target a = ab5_max_cool (a5_ability a)
  | _ => g5_min_target a = N.min (ab5_min_heat (a5_ability a)) (ab5_min_cool (a5_ability a)) /\
         g5_max_target a = N.max (ab5_max_heat (a5_ability a)) (ab5_max_cool (a5_ability a))
  end.
Proof. exact limits5. Qed.
Print Assumptions C10_at5_limits_follow_mode.

Theorem C10_at4_error_only_with_code : forall a, g4_error_info a = None <-> as_error (a4_status a) = 0.
Proof. intros a. apply none_iff_zero. Qed.
Print Assumptions C10_at4_error_only_with_code.

Theorem C10_at5_error_only_with_code : forall a, g5_error_info a = None <-> a5s_error (a5_status a) = 0.
Proof. intros a. apply none_iff_zero. Qed.
Print Assumptions C10_at5_error_only_with_code.

(* non-vacuity: three reports about AC 1 among reports about others; the last one wins *)
Example C10_witness :
  latest as_number (ac_status_init 1) 1
    [mkAS 1 APS_On AMS_Heat AFS_Low false false 21 200 0; mkAS 0 APS_On AMS_Cool AFS_High false false 24 250 0;
     mkAS 1 APS_Off AMS_AutoCool AFS_Turbo true false 23 215 7; mkAS 3 APS_On AMS_Dry AFS_Auto false false 20 190 0]
  = mkAS 1 APS_Off AMS_AutoCool AFS_Turbo true false 23 215 7.
Proof. reflexivity. Qed.
