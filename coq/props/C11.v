(* C11 — Invalid requests are refused locally; valid ones are shaped as documented. *)
From Coq Require Import NArith ZArith List Bool Lia.
From PV Require Import base.Res at4.Msg4 at5.Msg5 spec.Spec4 spec.Spec5 api.ApiTypes api.Api4 api.Api5 api.ApiProofs.
Import ListNotations.
Open Scope N_scope.

(* An outcome is [Sent m p] (exactly one socket.send of one message), [Refused] (ValueError,
   nothing sent) or [Unsendable]; with C01 a Sent outcome is exactly one frame.  The
   theorems quantify over EVERY ability bitmap (any 5 / 7 / 8 booleans), every enum
   argument, every float argument m * 2^e, every reported timer pair. *)

(* ---- AirTouch 4 AC: power control, mode, fan speed *)
Theorem C11_at4_set_power : forall a p, wf_ac4 a ->
  match p with
  | PC_Away | PC_Sleep => set_power4 a p = Refused
  | _ => exists m, set_power4 a p = Sent m (match p with PC_Toggle => P_NonIdempotent | _ => P_Idempotent end) /\
                   reads_ac4 m (mkSAC (a4_id a) (power_reading p) Keep Keep Keep)
  end.
Proof. exact set_power4_spec. Qed.
Print Assumptions C11_at4_set_power.

Theorem C11_at4_set_mode : forall a m on, wf_ac4 a ->
  if mode_bit (ab_modes (a4_ability a)) m
  then exists msg, set_mode4 a m on = Sent msg P_Idempotent /\
                   reads_ac4 msg (mkSAC (a4_id a) (if on then SetTo POn else Keep) (SetTo (mode_reading m)) Keep Keep)
  else set_mode4 a m on = Refused.
Proof. exact set_mode4_spec. Qed.
Print Assumptions C11_at4_set_mode.

Theorem C11_at4_set_fan : forall a f, wf_ac4 a ->
  if fan_bit (ab_fans (a4_ability a)) f
  then exists msg fr, fan_reading f = Some fr /\ set_fan4 a f = Sent msg P_Idempotent /\
                      reads_ac4 msg (mkSAC (a4_id a) Keep Keep (SetTo fr) Keep)
  else set_fan4 a f = Refused.
Proof. exact set_fan4_spec. Qed.
Print Assumptions C11_at4_set_fan.

(* ---- rounding: round0 / round1 give a nearest integer / tenth to the exact value of the
   float m * 2^e, the even one on a tie (Python's round) *)
Theorem C11_round_degrees : forall m e, (e < 0)%Z ->
  let d := (2 ^ (- e))%Z in let q := round0 m e in
  (2 * Z.abs (m - q * d) <= d)%Z /\ ((2 * Z.abs (m - q * d) = d)%Z -> Z.even q = true).
Proof. intros m e He. pose proof (dy_round_spec m e 1 He) as H. now rewrite Z.mul_1_r in H. Qed.
Print Assumptions C11_round_degrees.

Theorem C11_round_tenths : forall m e, (e < 0)%Z ->
  let d := (2 ^ (- e))%Z in let q := round1 m e in
  (2 * Z.abs (m * 10 - q * d) <= d)%Z /\ ((2 * Z.abs (m * 10 - q * d) = d)%Z -> Z.even q = true).
Proof. intros m e. exact (dy_round_spec m e 10). Qed.
Print Assumptions C11_round_tenths.

(* ---- AC set-point: rounded, then clamped into the current [min, max]; one frame that
   changes the set-point only *)
Theorem C11_at4_set_target : forall a m e, wf_ac4 a ->
  let v := clip (Z.of_N (g4_min_target a)) (Z.of_N (g4_max_target a)) (round0 m e) in
  (Z.of_N (g4_min_target a) <= v <= Z.of_N (g4_max_target a))%Z /\
  exists msg, set_target4 a m e = Sent msg P_Idempotent /\
              reads_ac4 msg (mkSAC (a4_id a) Keep Keep Keep (SetTo (v * 10)%Z)).
Proof. exact set_target4_spec. Qed.
Print Assumptions C11_at4_set_target.

Theorem C11_at5_set_target : forall a m e, wf_ac5 a ->
  (10 <= g5_min_target a)%N -> (g5_min_target a <= g5_max_target a)%N -> (g5_max_target a <= 35)%N ->
  let v := clip (Z.of_N (g5_min_target a) * 10) (Z.of_N (g5_max_target a) * 10) (round1 m e) in
  (Z.of_N (g5_min_target a) * 10 <= v <= Z.of_N (g5_max_target a) * 10)%Z /\
  exists msg, set_target5 a m e = Sent msg P_Idempotent /\
              reads_ac5 msg (mkSAC5 (a5_id a) Keep Keep Keep (SetTo v)).
Proof. exact set_target5_spec. Qed.
Print Assumptions C11_at5_set_target.

(* ---- AirTouch 5 AC *)
Theorem C11_at5_set_power : forall a p, wf_ac5 a ->
  exists m, set_power5 a p = Sent m (match p with PC_Toggle => P_NonIdempotent | _ => P_Idempotent end) /\
            reads_ac5 m (mkSAC5 (a5_id a) (power_reading p) Keep Keep Keep).
Proof. exact set_power5_spec. Qed.
Print Assumptions C11_at5_set_power.

Theorem C11_at5_set_mode : forall a m on, wf_ac5 a ->
  if mode_bit (ab5_modes (a5_ability a)) m
  then exists msg, set_mode5 a m on = Sent msg P_Idempotent /\
                   reads_ac5 msg (mkSAC5 (a5_id a) (if on then SetTo POn else Keep) (SetTo (mode_reading m)) Keep Keep)
  else set_mode5 a m on = Refused.
Proof. exact set_mode5_spec. Qed.
Print Assumptions C11_at5_set_mode.

Theorem C11_at5_set_fan : forall a f, wf_ac5 a ->
  if fan_bit (ab5_fans (a5_ability a)) f
  then exists msg, set_fan5 a f = Sent msg P_Idempotent /\
                   reads_ac5 msg (mkSAC5 (a5_id a) Keep Keep (SetTo (fan_reading5 f)) Keep)
  else set_fan5 a f = Refused.
Proof. exact set_fan5_spec. Qed.
Print Assumptions C11_at5_set_fan.

(* ---- zones: unsupported power state, damper outside 0..100, set-point without sensor *)
Theorem C11_at4_zone_power : forall z p, z4_id z < 256 ->
  if match p with PZ_Turbo => gs_turbo (z4_status z) | _ => true end
  then exists msg, zone_set_power4 z p = Sent msg P_Idempotent /\
                   reads_group4 msg (mkSGC (z4_id z) Keep Keep (SetTo (zpower_reading p)))
  else zone_set_power4 z p = Refused.
Proof. exact zone_set_power4_spec. Qed.
Print Assumptions C11_at4_zone_power.

Theorem C11_at4_zone_damper : forall z p, z4_id z < 256 ->
  if ((p <? 0) || (100 <? p))%Z then zone_set_damper4 z p = Refused
  else exists msg, zone_set_damper4 z p = Sent msg P_Idempotent /\
                   reads_group4 msg (mkSGC (z4_id z) (SetTo (Percent (Z.to_N p))) (SetTo ByPercentage) Keep).
Proof. exact zone_set_damper4_spec. Qed.
Print Assumptions C11_at4_zone_damper.

Theorem C11_at4_zone_target : forall z m e, z4_id z < 256 ->
  if gs_sensor (z4_status z)
  then (0 <= round0 m e < 256)%Z ->
       exists msg, zone_set_target4 z m e = Sent msg P_Idempotent /\
                   reads_group4 msg (mkSGC (z4_id z) (SetTo (SetPointDeg (round0 m e * 10))) (SetTo ByTemperature) Keep)
  else zone_set_target4 z m e = Refused.
Proof. exact zone_set_target4_spec. Qed.
Print Assumptions C11_at4_zone_target.

Theorem C11_at5_zone_power : forall z p, z5_id z < 64 ->
  exists msg, zone_set_power5 z p = Sent msg P_Idempotent /\
              reads_zone5 msg (mkSZC (z5_id z) Keep Keep (SetTo (zpower_reading p))).
Proof. exact zone_set_power5_spec. Qed.
Print Assumptions C11_at5_zone_power.

Theorem C11_at5_zone_damper : forall z p, z5_id z < 64 ->
  if ((p <? 0) || (100 <? p))%Z then zone_set_damper5 z p = Refused
  else exists msg, zone_set_damper5 z p = Sent msg P_Idempotent /\
                   reads_zone5 msg (mkSZC (z5_id z) (SetTo (Percent (Z.to_N p))) Keep Keep).
Proof. exact zone_set_damper5_spec. Qed.
Print Assumptions C11_at5_zone_damper.

Theorem C11_at5_zone_target : forall z m e, z5_id z < 64 ->
  if zs_sensor (z5_status z)
  then (100 <= round1 m e <= 355)%Z ->
       exists msg, zone_set_target5 z m e = Sent msg P_Idempotent /\
                   reads_zone5 msg (mkSZC (z5_id z) (SetTo (SetPointDeg (round1 m e))) Keep Keep)
  else zone_set_target5 z m e = Refused.
Proof. exact zone_set_target5_spec. Qed.
Print Assumptions C11_at5_zone_target.

(* ---- quick timers: the other timer is exactly the one last reported *)
Theorem C11_at4_timer_pair : forall a t s,
  exists on_ off_, timer_ctrl4 a t s = Sent (M_TimerCtrl [mkTD (a4_id a) on_ off_]) P_Idempotent /\
    match t with
    | PT_On => on_ = s /\ off_ = td_off (a4_timer a)
    | PT_Off => off_ = s /\ on_ = td_on (a4_timer a)
    end.
Proof. exact timer_pair4. Qed.
Print Assumptions C11_at4_timer_pair.

Theorem C11_at5_timer_pair : forall a t s,
  exists on_ off_, timer_ctrl5 a t s = Sent (M5_Ctl (C_TimerCtrl [mkTD (a5_id a) on_ off_])) P_Idempotent /\
    match t with
    | PT_On => on_ = s /\ off_ = td_off (a5_timer a)
    | PT_Off => off_ = s /\ on_ = td_on (a5_timer a)
    end.
Proof. exact timer_pair5. Qed.
Print Assumptions C11_at5_timer_pair.

(* non-vacuity: a well-formed AC and the ties 20.5 -> 20, 21.5 -> 22, 20.25 -> 20.2 *)
Example C11_witness :
  round0 41 (-1) = 20%Z /\ round0 43 (-1) = 22%Z /\ round1 81 (-2) = 202%Z /\ round1 (-5) (-1) = (-25)%Z /\
  wf_ac4 (mkAc4 (mkAb 0 [] [true; true; false; true; true] [true; false; true; true; true; false; false] 16 30 None 0 4)
                (mkAS 0 APS_On AMS_Cool AFS_Low false false 24 225 0) (mkTD 0 (mkTS true 0 0) (mkTS true 0 0)) None).
Proof. repeat split; try reflexivity; vm_compute; congruence || lia || reflexivity. Qed.
