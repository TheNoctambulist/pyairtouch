(* C03 — Every message frames and parses back identically, lengths agree. *)
From Coq Require Import NArith ZArith List Bool Lia.
From PV Require Import base.Res base.Utf8 crc.Crc stream.Stream stream.StreamProofs stream.Wire
  at4.Msg4 at4.Codec4 at4.Codec4Proofs at5.Msg5 at5.Codec5 at5.Codec5Proofs stream.WireProofs base.Flt base.FltProofs at5.FltLink.
Import ListNotations.
Open Scope N_scope.

(* The domains dom4 / dom5 (Codec4Proofs.v, Codec5Proofs.v) are decidable predicates, one
   clause per message class: field values within their bit widths, set-points and
   temperatures within the encodable range, strings valid UTF-8 / NUL-free / fitting their
   field, status lists non-empty (the empty body is the request), dictionary keys
   distinct, AT4 timer messages in their 4-record form. *)

(* payload level: announced size = bytes produced, and decode inverts encode, for all 18
   AirTouch 4 classes ... *)
Theorem C03_payload_roundtrip_4 : forall m, dom4 m = true ->
  exists p, enc4 m = Some p /\ size4 m = Some (length p) /\ dec4 (type_of m) p = Some m.
Proof. exact msg4_roundtrip. Qed.
Print Assumptions C03_payload_roundtrip_4.

(* ... and all 18 AirTouch 5 classes, including the nested 0xC0 sub-header (non-repeat
   length, repeat length, repeat count) and the 0x1F sub-id *)
Theorem C03_payload_roundtrip_5 : forall m, dom5 m = true ->
  exists p, enc5 m = Some p /\ size5 m = Some (length p) /\ dec5 (type_of5 m) p = Some m.
Proof. exact msg5_roundtrip. Qed.
Print Assumptions C03_payload_roundtrip_5.

(* frame level (fits4/fits5: the payload fits the 16-bit length field, i.e. is shorter
   than 65 524 bytes): what send() writes for m with any packet id is accepted by the receive
   path, which delivers an equal header and an equal message and leaves exactly the
   bytes that followed the frame *)
Theorem C03_frame_roundtrip_4 : forall m pid rest, dom4 m = true -> fits4 m = true -> pid < 256 ->
  exists h f, send4 m pid = Some (h, f) /\
              h_to h = to_address (type_of m) /\ h_from h = 0xB0 /\ h_pid h = pid /\ h_type h = type_of m /\
              rx_one msg4 rdec4 AT4 (f ++ rest) = RxDeliver h m rest.
Proof.
  intros m pid rest Hd Hf Hp.
  exact (send_with_roundtrip size4 enc4 dec4 type_of AT4 m pid rest (msg4_roundtrip m Hd) Hf (type_of_lt m Hd) Hp).
Qed.
Print Assumptions C03_frame_roundtrip_4.

Theorem C03_frame_roundtrip_5 : forall m pid rest, dom5 m = true -> fits5 m = true -> pid < 256 ->
  exists h f, send5 m pid = Some (h, f) /\
              h_to h = to_address (type_of5 m) /\ h_from h = 0xB0 /\ h_pid h = pid /\ h_type h = type_of5 m /\
              rx_one msg5 rdec5 AT5 (f ++ rest) = RxDeliver h m rest.
Proof.
  intros m pid rest Hd Hf Hp.
  exact (send_with_roundtrip size5 enc5 dec5 type_of5 AT5 m pid rest (msg5_roundtrip m Hd) Hf (type_of5_lt m Hd) Hp).
Qed.
Print Assumptions C03_frame_roundtrip_5.

(* the announced length in the header is the number of payload bytes in the frame *)
Theorem C03_header_length_4 : forall m pid h f, send4 m pid = Some (h, f) ->
  exists p, enc4 m = Some p /\ size4 m = Some (N.to_nat (h_len h)) /\ f = frame AT4 h p.
Proof. exact (send_with_length size4 enc4 type_of AT4). Qed.
Print Assumptions C03_header_length_4.

Theorem C03_header_length_5 : forall m pid h f, send5 m pid = Some (h, f) ->
  exists p, enc5 m = Some p /\ size5 m = Some (N.to_nat (h_len h)) /\ f = frame AT5 h p.
Proof. exact (send_with_length size5 enc5 type_of5 AT5). Qed.
Print Assumptions C03_header_length_5.

(* floating point.  Temperatures are tenths (Z) in Codec4 / Codec5; the library computes them with
   binary64 arithmetic ((raw - 500) / 10.0, int(t * 10.0 + 500), ...).  base/Flt.v states those lines on
   Coq.Floats.SpecFloat (IEEE-754 binary64, round to nearest even, pure Gallina): every value the fields can
   carry survives decode-then-encode in floating point, ... *)
Theorem C03_float_temperature_4 : forall v, (0 <= v < 2048)%Z ->
  f_enc_temp4 (f_dec_temp4 (Z.shiftl v 5)) = Some (Z.shiftl v 5).
Proof. exact temp4_float_roundtrip. Qed.
Print Assumptions C03_float_temperature_4.

Theorem C03_float_set_point_5 : forall r, (0 <= r < 256)%Z -> f_enc_sp5 (f_dec_sp5 r) = Some r.
Proof. exact sp5_float_roundtrip. Qed.
Print Assumptions C03_float_set_point_5.

Theorem C03_float_temperature_5 : forall r, (0 <= r < 2048)%Z -> f_enc_temp5 (f_dec_temp5 r) = Some r.
Proof. intros r H. apply temp5_float_roundtrip. lia. Qed.
Print Assumptions C03_float_temperature_5.

(* ... and the integer arithmetic of the codec model is exactly what the floating-point code computes:
   a decoder returns the binary64 nearest to (model tenths)/10, and on the binary64 nearest to k/10 an
   encoder yields the model's integer *)
Theorem C03_float_decoders : forall raw,
  ((raw < 65536)%N -> f_dec_temp4 (Z.of_N raw) = f_tenths (dec_temp raw)) /\
  (f_dec_sp5 (Z.of_N raw) = f_tenths (dec_set_point raw)) /\
  (f_dec_temp5 (Z.of_N raw) = f_tenths (dec_temp5 raw)).
Proof. intros raw. split; [intros _; exact (dec_temp4_float raw)|]. split; [exact (dec_set_point5_float raw)|exact (dec_temp5_float raw)]. Qed.
Print Assumptions C03_float_decoders.

Theorem C03_float_encoder_temperature_4 : forall k, (-500 <= k < 1548)%Z ->
  exists b, f_enc_temp4 (f_tenths k) = Some b /\ (0 <= b)%Z /\ enc_temp k = Some (Z.to_N b).
Proof. exact enc_temp4_float. Qed.
Print Assumptions C03_float_encoder_temperature_4.

Theorem C03_float_encoder_set_point_5 : forall k, (100 <= k < 356)%Z ->
  exists b, f_enc_sp5 (f_tenths k) = Some b /\ (0 <= b)%Z /\ enc_set_point k = Some (Z.to_N b).
Proof. exact enc_set_point5_float. Qed.
Print Assumptions C03_float_encoder_set_point_5.

Theorem C03_float_encoder_temperature_5 : forall k, (-1500 <= k < 1548)%Z ->
  exists b, f_enc_temp5 (f_tenths k) = Some b /\ Z.of_N (enc_temp11 k) = Z.land b 2047.
Proof. exact enc_temp5_float. Qed.
Print Assumptions C03_float_encoder_temperature_5.

(* non-vacuity: multi-record messages with multi-byte UTF-8 names are in the domain *)
Example C03_witness_4 :
  dom4 (M_GroupStatus [mkGS 3 GPS_On GMS_Temperature true false true Bat_Low (Some 0%Z) 100 (Some 24);
                       mkGS 15 GPS_Turbo GMS_Damper false true false Bat_Normal None 0 None]) = true /\
  dom4 (M_Ext (S_Names [(0, [75; 195; 188; 99; 104; 101]); (7, [])])) = true /\
  dom4 (M_Ext (S_Ability [mkAb 0 [85; 110; 105; 116] [true; true; false; true; true]
                               [true; false; true; true; true; false; false] 16 30 (Some [0; 1; 5; 15]) 0 4])) = true.
Proof. vm_compute. repeat split; reflexivity. Qed.

Example C03_witness_5 :
  dom5 (M5_Ctl (C_ZoneStatus [mkZS 1 ZPS_On false ZMS_Temperature true Bat_Normal (Some 0%Z) 100 (Some 215%Z);
                              mkZS 2 ZPS_Off true ZMS_Damper false Bat_Low None 0 None])) = true /\
  dom5 (M5_Ext (S5_Names [(1, [76; 105; 118; 105; 110; 103]); (2, [229; 173; 144])])) = true /\
  dom5 (M5_Ctl (C_AcStatus [mkA5S 15 A5S_Sleep AMS_AutoCool A5FS_IATurbo true false true false 354%Z (-500)%Z 65535])) = true.
Proof. vm_compute. repeat split; reflexivity. Qed.
