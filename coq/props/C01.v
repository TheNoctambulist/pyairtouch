(* C01 — Accepted commands reach the wire once each, in order, unsubstituted. *)
From Coq Require Import ZArith List Bool Lia Sorted.
From PV Require Import sock.Sock sock.Queue sock.SockProofs sock.Drain sock.DrainProofs.
Import ListNotations.
Open Scope Z_scope.

(* nothing is transmitted that was not submitted: every frame written in any run is the
   frame (message k, packet id) of an earlier accepted send with the same ordinal *)
Theorem C01_no_invention : forall pid0 ops c i k pid t,
  In (EWrote c i k pid t) (trace (init pid0) ops) ->
  exists r exp, In (EAccept i k pid r exp) (trace (init pid0) ops) /\ t < exp.
Proof. intros pid0 ops. exact (j_wrote _ _ _ (trace_J pid0 ops)). Qed.
Print Assumptions C01_no_invention.

(* at most once and in acceptance order, for every stimulus list (faults included):
   the ordinals of the written frames are strictly increasing along the whole trace *)
Theorem C01_once_in_order : forall pid0 ops,
  StronglySorted lt (widx (trace (init pid0) ops)).
Proof. intros pid0 ops. exact (ledger_sorted _ _ _ (j_ledger _ _ _ (trace_J pid0 ops))). Qed.
Print Assumptions C01_once_in_order.

(* promptness, connection coming up: when a dial succeeds, exactly the pending messages
   that are unexpired and encodable are written at that instant, in acceptance order,
   once each, and nothing stays behind *)
Theorem C01_flush_on_connect : forall s,
  s_accept s = true -> s_failw s = false ->
  dial_done s =
  (mkS (s_open s) (Some (s_ncid s)) [] None (s_sleeps s) (s_now s) (s_pid s) (S (s_ncid s)) (s_nsend s)
       (s_accept s) (s_lat s) false,
   EOpen (s_ncid s) :: ENotify true ::
   map (wrote_of (s_ncid s) (s_now s)) (filter (sendable (s_now s)) (s_queue s))).
Proof. exact dial_done_flush. Qed.
Print Assumptions C01_flush_on_connect.

(* promptness, already connected: the message is written within the send call *)
Theorem C01_send_connected : forall s c k r life,
  SInv s -> s_open s = true -> s_link s = Some c -> s_failw s = false -> 0 < life ->
  snd (step s (OSend k EncOk r life)) =
  [EAccept (s_nsend s) k (s_pid s) r (s_now s + life);
   EWrote c (s_nsend s) k (s_pid s) (s_now s); ESendOk]
  /\ s_queue (fst (step s (OSend k EncOk r life))) = []
  /\ s_link (fst (step s (OSend k EncOk r life))) = Some c.
Proof. intros s c k r life HI _. exact (send_connected s c k r life HI). Qed.
Print Assumptions C01_send_connected.

(* in every reachable quiescent state, being connected means nothing is pending *)
Theorem C01_nothing_pending_while_connected : forall pid0 ops c,
  s_link (fst (run (init pid0) ops)) = Some c -> s_queue (fst (run (init pid0) ops)) = [].
Proof. intros pid0 ops. exact (si_idle _ (reachable_SInv pid0 ops)). Qed.
Print Assumptions C01_nothing_pending_while_connected.

(* packet ids: after any run the counter equals pid0 + (number of sends that reached the
   header factory) modulo 256 — unbounded in the length of the run *)
Theorem C01_pid_wrap : forall pid0 ops,
  s_pid (fst (run (init pid0) ops)) mod 256 = (pid0 + Z.of_nat (consuming ops)) mod 256.
Proof. intros pid0 ops. exact (run_pid ops (init pid0)). Qed.
Print Assumptions C01_pid_wrap.

(* frames are written only on the connection that is currently open (never on an
   abandoned one), see also C07_single *)
Theorem C01_on_open_link : forall pid0 ops,
  walk [] (trace (init pid0) ops) = Some (held (fst (run (init pid0) ops))).
Proof. exact trace_walk. Qed.
Print Assumptions C01_on_open_link.

(* non-vacuity: 300 sends across two outages — all hypotheses hold, ids wrap *)
Definition c01_long : list op :=
  OOpen :: OAdv 5 :: repeat (OSend 0 EncOk 2 30720) 120 ++ OPeerRst :: repeat (OSend 1 EncOk 0 30720) 5 ++
  OAdv 5 :: repeat (OSend 2 EncOk 2 30720) 170 ++ OPeerEof :: repeat (OSend 3 EncOk 2 30720) 5 ++ [OAdv 5].
Example C01_witness :
  length (widx (trace (init 250) c01_long)) = 300%nat /\
  s_pid (fst (run (init 250) c01_long)) = (250 + 300) mod 256.
Proof. vm_compute. split; reflexivity. Qed.
Print Assumptions C01_witness.

(* ---- under transport back-pressure (coq/sock/Drain.v): writer.drain() blocks, other tasks keep calling
   send(), the link may go down and come up (fault-free), for every such history: frames are handed to the
   transport in acceptance order, hence each at most once, ... *)
Theorem C01_backpressure_order : forall c ops s tr,
  drun (dinit c) ops = Some (s, tr) -> StronglySorted lt (written tr) /\ NoDup (written tr).
Proof. intros c ops s tr H. split; [exact (drain_order c ops s tr H)|exact (drain_once c ops s tr H)]. Qed.
Print Assumptions C01_backpressure_order.

(* ... nothing is transmitted that was not submitted, ... *)
Theorem C01_backpressure_submitted : forall c ops s tr i t,
  drun (dinit c) ops = Some (s, tr) -> In (DWrote i t) tr -> exists x, In (DAccept i x) tr.
Proof. intros c ops s tr i t H W. destruct (drain_expiry c ops s tr i t H W) as [x [Hx _]]. now exists x. Qed.
Print Assumptions C01_backpressure_submitted.

(* ... and as soon as the client is connected with no drain loop suspended (and the flush that follows the connected
   notification done), every accepted message has been transmitted, unless its lifetime had ended (the DDrop ghost
   event carries the instant: x <= t) *)
Theorem C01_backpressure_complete : forall c ops s tr,
  drun (dinit c) ops = Some (s, tr) -> d_conn s = true -> d_parked s = 0%nat -> d_owed s = false ->
  forall i x, In (DAccept i x) tr -> (exists t, In (DWrote i t) tr) \/ (exists t, In (DDrop i t) tr /\ x <= t).
Proof. exact drain_complete. Qed.
Print Assumptions C01_backpressure_complete.

(* non-vacuity: the flush after a reconnection is suspended on the first frame; two more sends arrive (each
   writes the oldest pending frame and suspends); one entry expires before the transport resumes *)
Example C01_backpressure_witness :
  let ops := [DSend 2 30720; DSend 0 1024; DSend 2 30720; DBp true; DUp; DSend 2 30720; DAdv 2000; DSend 2 30720; DBp false] in
  match drun (dinit false) ops with
  | Some (s, tr) => written tr = [0; 1; 2; 3; 4]%nat /\ d_parked s = 0%nat /\ d_queue s = []
  | None => False
  end /\
  match drun (dinit false) [DSend 2 30720; DSend 0 1024; DBp true; DUp; DAdv 2000; DBp false] with
  | Some (s, tr) => written tr = [0%nat] /\ In (DDrop 1 2000) tr
  | None => False
  end /\
  (* a connection subscriber sends during the connected notification: the pending messages go first *)
  match drun (dinit false) [DSend 2 30720; DSend 2 30720; DConn; DSend 0 1024; DFlush] with
  | Some (s, tr) => written tr = [0; 1; 2]%nat /\ d_queue s = [] /\ d_owed s = false
  | None => False
  end.
Proof. vm_compute. repeat split; try reflexivity. do 3 right. left. reflexivity. Qed.
Print Assumptions C01_backpressure_witness.
