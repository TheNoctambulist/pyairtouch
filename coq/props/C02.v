(* C02 — Retry discipline: bounded attempts, none after expiry, non-idempotent once. *)
From Coq Require Import ZArith List Bool Lia.
From PV Require Import sock.Sock sock.SockProofs sock.Drain sock.DrainProofs.
Import ListNotations.
Open Scope Z_scope.

(* under any pattern of failures: attempts (successful or failed writes) on a message
   accepted with r retries never exceed 1 + r *)
Theorem C02_attempt_bound : forall pid0 ops i k pid r exp,
  In (EAccept i k pid r exp) (trace (init pid0) ops) ->
  (att i (trace (init pid0) ops) <= 1 + r)%nat.
Proof.
  intros pid0 ops i k pid r exp H.
  pose proof (j_att _ _ _ (trace_J pid0 ops) _ _ _ _ _ H). lia.
Qed.
Print Assumptions C02_attempt_bound.

(* ... in particular a message sent with a zero-retry policy (power toggle, +/-1 step,
   control-method flip: see the observed policy table) is attempted at most once *)
Theorem C02_non_idempotent_once : forall pid0 ops i k pid exp,
  In (EAccept i k pid 0%nat exp) (trace (init pid0) ops) ->
  (att i (trace (init pid0) ops) <= 1)%nat.
Proof. intros pid0 ops i k pid exp. exact (C02_attempt_bound pid0 ops i k pid 0%nat exp). Qed.
Print Assumptions C02_non_idempotent_once.

(* never at or after its lifetime has elapsed *)
Theorem C02_never_late : forall pid0 ops c i k pid t,
  In (EWrote c i k pid t) (trace (init pid0) ops) ->
  exists r exp, In (EAccept i k pid r exp) (trace (init pid0) ops) /\ t < exp.
Proof. intros pid0 ops. exact (j_wrote _ _ _ (trace_J pid0 ops)). Qed.
Print Assumptions C02_never_late.

(* the expiry recorded at acceptance is accept time + lifetime of the policy used *)
Theorem C02_expiry_is_lifetime : forall s k cls r life,
  s_open s = true -> s_link s = None -> cls <> EncNoEncoder ->
  (length (filter (unexpired (s_now s)) (s_queue s)) < 10)%nat ->
  snd (step s (OSend k cls r life)) = [EAccept (s_nsend s) k (s_pid s) r (s_now s + life); ESendOk] /\
  s_queue (fst (step s (OSend k cls r life))) =
    filter (unexpired (s_now s)) (s_queue s) ++ [mkEntry (s_nsend s) k cls (s_pid s) r (s_now s + life)].
Proof. exact send_queued. Qed.
Print Assumptions C02_expiry_is_lifetime.

(* a single transient write failure does not lose an idempotent command: it returns
   to the head of the queue with one retry less ... *)
Theorem C02_transient_fault_requeues : forall s c k n life,
  SInv s -> s_open s = true -> s_link s = Some c -> s_failw s = true -> 0 < life ->
  snd (step s (OSend k EncOk (S n) life)) =
  [EAccept (s_nsend s) k (s_pid s) (S n) (s_now s + life);
   EWFail c (s_nsend s); ENotify false; EDial; ESendOk]
  /\ s_queue (fst (step s (OSend k EncOk (S n) life))) =
     [mkEntry (s_nsend s) k EncOk (s_pid s) n (s_now s + life)]
  /\ s_link (fst (step s (OSend k EncOk (S n) life))) = None.
Proof. intros s c k n life HI _. exact (send_write_fault s c k n life HI). Qed.
Print Assumptions C02_transient_fault_requeues.

(* ... and the head of the queue is what is written first on the next connection
   (if it has not expired by then) *)
Theorem C02_resent_first : forall s e q,
  s_accept s = true -> s_failw s = false -> s_queue s = e :: q -> sendable (s_now s) e = true ->
  exists rest, snd (dial_done s) =
    EOpen (s_ncid s) :: ENotify true :: EWrote (s_ncid s) (e_idx e) (e_k e) (e_pid e) (s_now s) :: rest.
Proof.
  intros s e q Ha Hf Hq Hs. rewrite (dial_done_flush s Ha Hf), Hq. cbn. rewrite Hs. cbn.
  eexists. reflexivity.
Qed.
Print Assumptions C02_resent_first.

(* failed head with no retry left is dropped, never re-sent *)
Theorem C02_no_retry_left_dropped : forall now c e q,
  sendable now e = true -> e_retries e = 0%nat ->
  drain_q now c true (e :: q) = ([EWFail c (e_idx e)], q, true).
Proof. intros now c e q Hs Hr. rewrite drain_q_cons, Hs. unfold requeue. now rewrite Hr. Qed.
Print Assumptions C02_no_retry_left_dropped.

(* non-vacuity: idempotent command survives two failures and is dropped at the third;
   connected-only request (1 s) queued during an outage of exactly 1 s is not sent *)
Example C02_witness :
  let tr := trace (init 0)
    [OOpen; OAdv 1; OFailNextWrite; OSend 0 EncOk 2 30720; OFailNextWrite; OAdv 1;
     OFailNextWrite; OAdv 1; OAdv 1; OAdv 1] in
  att 0 tr = 3%nat /\ widx tr = [] /\
  widx (trace (init 0) [OOpen; OAdv 1; ONet true 1024; OPeerRst; OSend 1 EncOk 0 1024; OAdv 1024; OAdv 5]) = [] /\
  widx (trace (init 0) [OOpen; OAdv 1; ONet true 1023; OPeerRst; OSend 1 EncOk 0 1024; OAdv 1024; OAdv 5]) = [0%nat].
Proof. vm_compute. repeat split; reflexivity. Qed.
Print Assumptions C02_witness.

(* ---- under transport back-pressure (coq/sock/Drain.v): however long drain() stays blocked and whatever is sent
   meanwhile, a frame is handed to the transport only before its lifetime has ended (the clock is read per entry,
   after the suspension), and at most once *)
Theorem C02_backpressure_expiry : forall c ops s tr i t,
  drun (dinit c) ops = Some (s, tr) -> In (DWrote i t) tr -> exists x, In (DAccept i x) tr /\ t < x.
Proof. exact drain_expiry. Qed.
Print Assumptions C02_backpressure_expiry.

Theorem C02_backpressure_once : forall c ops s tr, drun (dinit c) ops = Some (s, tr) -> NoDup (written tr).
Proof. exact drain_once. Qed.
Print Assumptions C02_backpressure_once.
