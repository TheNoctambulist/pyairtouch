(* C04 — Commands on the wire mean what the vendor protocol says. *)
From Coq Require Import NArith ZArith List Bool Lia.
From PV Require Import base.Res crc.Crc stream.Stream stream.Wire stream.WireProofs
  at4.Msg4 at4.Codec4 at4.Codec4Proofs at5.Msg5 at5.Codec5 at5.Codec5Proofs
  spec.Spec4 spec.Spec5 spec.Command4 spec.Command5 api.ApiTypes api.Api4 api.Api5 api.ApiProofs.
Import ListNotations.
Open Scope N_scope.

(* Spec4.read_group_ctrl / read_ac_ctrl and Spec5.read_zone_ctrl / read_ac5_ctrl transcribe
   sections 4.a / 4.c (AirTouch 4) and 4.a.i / 4.a.iii (AirTouch 5) of the vendor documents:
   every "other" code reads Keep.  mean_* says what a control record asks for. *)

(* ---- codec level: EVERY control record in the protocol domain (all AC numbers 0..63 /
   0..15, zone numbers, set-points, percentages, every enum member) reads back, from its
   bytes, as exactly what it holds - requested attribute set, everything else Keep *)
Theorem C04_at4_ac_ctrl_bytes : forall c, dom_ac_ctrl c = true ->
  exists b1 b2 b3, enc_ac_ctrl c = Some [b1; b2; b3; 0] /\ read_ac_ctrl b1 b2 b3 = mean_ac_ctrl c.
Proof. exact ac_ctrl_means. Qed.
Print Assumptions C04_at4_ac_ctrl_bytes.

Theorem C04_at4_group_ctrl_bytes : forall c, dom_group_ctrl c = true ->
  exists b1 b2 b3, enc_group_ctrl c = Some [b1; b2; b3; 0] /\ read_group_ctrl b1 b2 b3 = mean_group_ctrl c.
Proof. exact group_ctrl_means. Qed.
Print Assumptions C04_at4_group_ctrl_bytes.

Theorem C04_at5_zone_ctrl_bytes : forall z, dom_zone_ctrl64 z = true ->
  exists b1 b2 b3, enc_zone_ctrl1 z = Some [b1; b2; b3; 0] /\ read_zone_ctrl b1 b2 b3 = mean_zone_ctrl z.
Proof. exact zone_ctrl_means. Qed.
Print Assumptions C04_at5_zone_ctrl_bytes.

Theorem C04_at5_ac_ctrl_bytes : forall c, dom_ac5_ctrl c = true ->
  exists b1 b2 b3 b4, enc_ac5_ctrl1 c = Some [b1; b2; b3; b4] /\ read_ac5_ctrl b1 b2 b3 b4 = mean_ac5_ctrl c.
Proof. exact ac5_ctrl_means. Qed.
Print Assumptions C04_at5_ac_ctrl_bytes.

(* ---- API level: the frame of each public call addresses the intended AC / zone, changes
   exactly the requested attribute to exactly the requested value and keeps the rest
   (reads_* = the payload bytes of the emitted message under the document's reading).
   Mode / fan / power / zone power / damper calls: C11_at4_set_mode ... C11_at5_zone_damper
   (props/C11.v) state the same readings together with the validation, and two of them stand here as samples,
   C04_at4_set_mode and C04_at5_set_fan, below the set-point calls: *)
Theorem C04_at4_set_target : forall a m e, wf_ac4 a ->
  let v := clip (Z.of_N (g4_min_target a)) (Z.of_N (g4_max_target a)) (round0 m e) in
  (Z.of_N (g4_min_target a) <= v <= Z.of_N (g4_max_target a))%Z /\
  exists msg, set_target4 a m e = Sent msg P_Idempotent /\
              reads_ac4 msg (mkSAC (a4_id a) Keep Keep Keep (SetTo (v * 10)%Z)).
Proof. exact set_target4_spec. Qed.
Print Assumptions C04_at4_set_target.

Theorem C04_at5_set_target : forall a m e, wf_ac5 a ->
  (10 <= g5_min_target a)%N -> (g5_min_target a <= g5_max_target a)%N -> (g5_max_target a <= 35)%N ->
  let v := clip (Z.of_N (g5_min_target a) * 10) (Z.of_N (g5_max_target a) * 10) (round1 m e) in
  (Z.of_N (g5_min_target a) * 10 <= v <= Z.of_N (g5_max_target a) * 10)%Z /\
  exists msg, set_target5 a m e = Sent msg P_Idempotent /\
              reads_ac5 msg (mkSAC5 (a5_id a) Keep Keep Keep (SetTo v)).
Proof. exact set_target5_spec. Qed.
Print Assumptions C04_at5_set_target.

Theorem C04_at4_zone_target : forall z m e, z4_id z < 256 ->
  if gs_sensor (z4_status z)
  then (0 <= round0 m e < 256)%Z ->
       exists msg, zone_set_target4 z m e = Sent msg P_Idempotent /\
                   reads_group4 msg (mkSGC (z4_id z) (SetTo (SetPointDeg (round0 m e * 10))) (SetTo ByTemperature) Keep)
  else zone_set_target4 z m e = Refused.
Proof. exact zone_set_target4_spec. Qed.
Print Assumptions C04_at4_zone_target.

Theorem C04_at5_zone_target : forall z m e, z5_id z < 64 ->
  if zs_sensor (z5_status z)
  then (100 <= round1 m e <= 355)%Z ->
       exists msg, zone_set_target5 z m e = Sent msg P_Idempotent /\
                   reads_zone5 msg (mkSZC (z5_id z) (SetTo (SetPointDeg (round1 m e))) Keep Keep)
  else zone_set_target5 z m e = Refused.
Proof. exact zone_set_target5_spec. Qed.
Print Assumptions C04_at5_zone_target.

Theorem C04_at4_set_mode : forall a m on, wf_ac4 a ->
  if mode_bit (ab_modes (a4_ability a)) m
  then exists msg, set_mode4 a m on = Sent msg P_Idempotent /\
                   reads_ac4 msg (mkSAC (a4_id a) (if on then SetTo POn else Keep) (SetTo (mode_reading m)) Keep Keep)
  else set_mode4 a m on = Refused.
Proof. exact set_mode4_spec. Qed.
Print Assumptions C04_at4_set_mode.

Theorem C04_at5_set_fan : forall a f, wf_ac5 a ->
  if fan_bit (ab5_fans (a5_ability a)) f
  then exists msg, set_fan5 a f = Sent msg P_Idempotent /\
                   reads_ac5 msg (mkSAC5 (a5_id a) Keep Keep (SetTo (fan_reading5 f)) Keep)
  else set_fan5 a f = Refused.
Proof. exact set_fan5_spec. Qed.
Print Assumptions C04_at5_set_fan.

(* ---- every frame send() writes: to 0x80 (0x90 for the extended type 0x1F) from 0xB0,
   with the packet id and type of the message, and check bytes that validate over
   address .. payload *)
Theorem C04_addressing_4 : forall m pid h f, send4 m pid = Some (h, f) ->
  h_to h = (if type_of m =? 0x1F then 0x90 else 0x80) /\ h_from h = 0xB0 /\ h_pid h = pid /\ h_type h = type_of m /\
  exists p, enc4 m = Some p /\ f = enc_hdr AT4 h ++ p ++ check_bytes (cov h ++ p) /\
            validate (cov h ++ p) (check_bytes (cov h ++ p)) = true.
Proof. exact (send_with_addressing size4 enc4 type_of AT4). Qed.
Print Assumptions C04_addressing_4.

Theorem C04_addressing_5 : forall m pid h f, send5 m pid = Some (h, f) ->
  h_to h = (if type_of5 m =? 0x1F then 0x90 else 0x80) /\ h_from h = 0xB0 /\ h_pid h = pid /\ h_type h = type_of5 m /\
  exists p, enc5 m = Some p /\ f = enc_hdr AT5 h ++ p ++ check_bytes (cov h ++ p) /\
            validate (cov h ++ p) (check_bytes (cov h ++ p)) = true.
Proof. exact (send_with_addressing size5 enc5 type_of5 AT5). Qed.
Print Assumptions C04_addressing_5.

(* non-vacuity: the vendor documents' own examples, "turn off the second AC" (AT4) and
   "second AC to 26 degrees" (AT5) *)
Example C04_doc_examples :
  enc_ac_ctrl (mkAC 1 AP_Off AM_Unchanged AF_Unchanged AS_None) = Some [0x81; 0xFF; 0x3F; 0x00] /\
  enc_ac5_ctrl1 (mkA5C 1 A5P_Unchanged AM_Unchanged A5F_Unchanged (Some 260%Z)) = Some [0x01; 0xFF; 0x40; 0xA0] /\
  enc_group_ctrl (mkGC 1 GP_Off GM_Unchanged GS_None) = Some [0x01; 0x02; 0x00; 0x00].
Proof. vm_compute. repeat split; reflexivity. Qed.
