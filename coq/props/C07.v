(* C07 — The connection heals itself, never wedges, and stays single. *)
From Coq Require Import ZArith List Bool Lia.
From PV Require Import sock.Sock sock.SockProofs.
Import ListNotations.
Open Scope Z_scope.

(* single + every abandoned connection closed: walking the trace of ANY stimulus list
   (refusals, EOF, resets, garbage, bad CRC, write errors, unencodable messages, sends,
   clock advances, close/open) never finds a second connection opened or dialled while
   one is held, nor a close/write/delivery on a connection other than the held one; the
   connections held at the end are exactly the model's current link *)
Theorem C07_single : forall pid0 ops,
  walk [] (trace (init pid0) ops) = Some (held (fst (run (init pid0) ops))).
Proof. exact trace_walk. Qed.
Print Assumptions C07_single.

(* ... hence the same for every prefix of the trace, with at most one held connection *)
Theorem C07_single_prefix : forall pid0 ops a b,
  trace (init pid0) ops = a ++ b ->
  exists m, walk [] a = Some m /\ (length m <= 1)%nat.
Proof.
  intros pid0 ops a b E. pose proof (trace_walk pid0 ops) as H. rewrite E in H.
  destruct (walk_prefix _ _ _ _ H) as [m Hm]. exists m. split; [exact Hm|].
  exact (walk_le1 a [] m (Nat.le_0_l _) Hm).
Qed.
Print Assumptions C07_single_prefix.

(* never wedged: in every reachable state an open client is either connected with no
   dial in flight, or disconnected with at least one connect task (dialling or sleeping
   out the retry delay) that will act; a closed client has neither *)
Theorem C07_alive : forall pid0 ops, life_ok (fst (run (init pid0) ops)).
Proof. intros pid0 ops. exact (si_life _ (reachable_SInv pid0 ops)). Qed.
Print Assumptions C07_alive.

(* heals in bounded time: from ANY state satisfying the invariants (in particular any
   reachable one) in which the client is open, dials are accepted and no write fault is
   armed: if dt covers the dial in flight — or, when none is in flight, every pending
   wake-up plus one dial latency — then after at most (#sleeping connect tasks + 1) timer
   firings the client is connected, no later than dt after *)
Theorem C07_heals : forall s dt,
  SInv s -> TInv s -> s_open s = true -> s_accept s = true -> s_failw s = false ->
  0 <= dt -> covers s dt ->
  exists m, (m <= length (s_sleeps s) + 1)%nat /\ s_link (advs m dt s) <> None /\
            s_open (advs m dt s) = true /\ s_now (advs m dt s) <= s_now s + dt.
Proof. exact heals. Qed.
Print Assumptions C07_heals.

(* ... with the explicit bound of the design document: during back-off (no dial in
   flight) the retry delay of 2 s plus one connect latency always suffices *)
Theorem C07_heals_backoff : forall s,
  SInv s -> TInv s -> s_open s = true -> s_accept s = true -> s_failw s = false ->
  s_dial s = None ->
  exists m, (m <= length (s_sleeps s) + 1)%nat /\
            s_link (advs m (2048 + s_lat s) s) <> None /\
            s_now (advs m (2048 + s_lat s) s) <= s_now s + 2048 + s_lat s.
Proof. exact heals_backoff. Qed.
Print Assumptions C07_heals_backoff.

(* the invariants used above hold in every reachable state (well-formed stimuli:
   non-negative advances and latencies) *)
Theorem C07_reachable_invariants : forall pid0 ops,
  forallb valid_op ops = true ->
  SInv (fst (run (init pid0) ops)) /\ TInv (fst (run (init pid0) ops)).
Proof. intros pid0 ops Hv. split; [exact (reachable_SInv pid0 ops)|exact (reachable_TInv pid0 ops Hv)]. Qed.
Print Assumptions C07_reachable_invariants.

(* ... still receiving: a frame sent afterwards is delivered *)
Theorem C07_receives : forall s c j, s_link s = Some c -> step s (OPeerFrame j) = (s, [EDeliver j]).
Proof. intros s c j H. cbn. rewrite H. reflexivity. Qed.
Print Assumptions C07_receives.

(* ... still transmitting: a command submitted afterwards is written at once *)
Theorem C07_transmits : forall s c k r life,
  SInv s -> s_open s = true -> s_link s = Some c -> s_failw s = false -> 0 < life ->
  snd (step s (OSend k EncOk r life)) =
  [EAccept (s_nsend s) k (s_pid s) r (s_now s + life);
   EWrote c (s_nsend s) k (s_pid s) (s_now s); ESendOk]
  /\ s_queue (fst (step s (OSend k EncOk r life))) = []
  /\ s_link (fst (step s (OSend k EncOk r life))) = Some c.
Proof. intros s c k r life HI _. exact (send_connected s c k r life HI). Qed.
Print Assumptions C07_transmits.

(* an unencodable message queued during an outage neither blocks the messages behind it
   nor costs the connection *)
Theorem C07_unencodable_skipped : forall now c e q,
  e_cls e <> EncOk -> drain_q now c false (e :: q) = drain_q now c false q.
Proof.
  intros now c e q H. cbn. destruct (e_expiry e <=? now); [reflexivity|].
  destruct (e_cls e); [contradiction|reflexivity|reflexivity].
Qed.
Print Assumptions C07_unencodable_skipped.

(* non-vacuity of the multi-task states: a write failure while flushing the queue on a
   fresh connection leaves BOTH an immediate dial and a delayed connect task behind *)
Example C07_witness_two_tasks :
  let s := fst (run (init 0) [OOpen; OFailNextWrite; OSend 0 EncOk 2 30720; OAdv 5]) in
  s_link s = None /\ s_dial s = Some 2 /\ s_sleeps s = [2049] /\ length (s_queue s) = 1%nat.
Proof. vm_compute. repeat split; reflexivity. Qed.
Print Assumptions C07_witness_two_tasks.

(* non-vacuity: one script through every fault kind; at the end connected, receiving,
   transmitting, with 8 connections opened and 7 of them closed or lost *)
Definition c07_script : list op :=
  [OOpen; ONet false 3; OAdv 5; OAdv 3000; OAdv 5; ONet true 2; OAdv 3000; OAdv 5;
   OPeerEof; OAdv 5; OPeerRst; OAdv 5; OPeerBad; OAdv 5; OFailNextWrite; OSend 0 EncOk 2 30720; OAdv 5;
   OSend 9 EncBadWrite 2 30720; OSend 10 EncNoEncoder 2 30720; OReset; OSend 9 EncBadWrite 0 30720;
   OSend 1 EncOk 0 30720; OAdv 5; OPeerFrame 0; OSend 2 EncOk 0 1024].
Example C07_witness :
  let s := fst (run (init 0) c07_script) in
  s_link s = Some 5%nat /\ s_queue s = [] /\
  widx (trace (init 0) c07_script) = [0; 3; 4]%nat /\
  forallb valid_op c07_script = true.
Proof. vm_compute. repeat split; reflexivity. Qed.
Print Assumptions C07_witness.
