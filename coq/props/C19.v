(* C19 — The unified API behaves the same over AirTouch 4 and AirTouch 5. *)
From Coq Require Import NArith ZArith List Bool Lia.
From PV Require Import base.Res at4.Msg4 at5.Msg5 spec.Spec4 spec.Spec5 api.ApiTypes api.Api4 api.Api5 api.ApiProofs
  api.Common api.CommonProofs.
Import ListNotations.
Open Scope N_scope.

(* kac / kzone (Common.v): an AC / zone state expressible in both protocols (common modes and
   fan speeds, whole-degree set-point, one [min, max] for every mode, turbo-capable zones);
   ac4_of / ac5_of, zone4_of / zone5_of: the records each generation's console reports for it.
   By C10 the stored records are the latest reported ones, so equal views of the records are
   equal views after any history of equivalent reports. *)

(* ---- every attribute both generations support reads the same through the unified API *)
Theorem C19_ac_views_equal : forall k, kac_ok k -> view4 (ac4_of k) = view5 (ac5_of k).
Proof. exact views_equal. Qed.
Print Assumptions C19_ac_views_equal.

Theorem C19_zone_views_equal : forall k, zview4 (zone4_of k) = zview5 (zone5_of k).
Proof. exact zone_views_equal. Qed.
Print Assumptions C19_zone_views_equal.

(* ---- the same requests are accepted and refused; accepted ones carry the same retry policy
   and, each read by its own vendor document, mean the same (AC addressed, power / mode / fan /
   set-point change) *)
Theorem C19_same_power : forall k p, wf_k k -> (p = PC_Toggle \/ p = PC_Off \/ p = PC_On) ->
  same_meaning (set_power4 (ac4_of k) p) (set_power5 (ac5_of k) p).
Proof. exact same_power. Qed.
Print Assumptions C19_same_power.

Theorem C19_same_mode : forall k m on, wf_k k -> same_meaning (set_mode4 (ac4_of k) m on) (set_mode5 (ac5_of k) m on).
Proof. exact same_mode. Qed.
Print Assumptions C19_same_mode.

Theorem C19_same_fan : forall k f, wf_k k -> f <> PF_IntelligentAuto -> same_meaning (set_fan4 (ac4_of k) f) (set_fan5 (ac5_of k) f).
Proof. intros k f W _. now apply same_fan. Qed.
Print Assumptions C19_same_fan.

Theorem C19_same_target : forall k m e, wf_k k -> (0 <= e)%Z ->
  same_meaning (set_target4 (ac4_of k) m e) (set_target5 (ac5_of k) m e).
Proof. exact same_target. Qed.
Print Assumptions C19_same_target.

Theorem C19_same_zone_power : forall k p, kz_num k < 64 ->
  same_zone_meaning (zone_set_power4 (zone4_of k) p) (zone_set_power5 (zone5_of k) p).
Proof. exact same_zone_power. Qed.
Print Assumptions C19_same_zone_power.

(* PARTIAL (zone damper and set-point): the zone addressed, the value and the power part mean
   the same; the control-method part does not (next theorem) *)
Theorem C19_same_zone_damper_partial : forall k p, kz_num k < 64 ->
  same_zone_meaning (zone_set_damper4 (zone4_of k) p) (zone_set_damper5 (zone5_of k) p).
Proof. exact same_zone_damper. Qed.
Print Assumptions C19_same_zone_damper_partial.

Theorem C19_same_zone_target_partial : forall k m e, kz_num k < 64 -> (0 <= e)%Z -> (10 <= m * 2 ^ e <= 35)%Z ->
  same_zone_meaning (zone_set_target4 (zone4_of k) m e) (zone_set_target5 (zone5_of k) m e).
Proof. exact same_zone_target. Qed.
Print Assumptions C19_same_zone_target_partial.

(* the full statement is false of the code (known finding "zone-control-method"): an
   AirTouch 4 zone damper / set-point request also switches the zone to the control method
   the setting implies, the AirTouch 5 request keeps the control method *)
Theorem C19_zone_method_refuted :
  let k := mkKZone 1 [] ZPS_On ZMS_Damper true Bat_Normal (Some 215%Z) 50 22 false in
  exists m4 m5 s4 s5 p, zone_set_damper4 (zone4_of k) 40 = Sent m4 p /\ zone_set_damper5 (zone5_of k) 40 = Sent m5 p /\
    reads_group4 m4 s4 /\ reads_zone5 m5 s5 /\ sgc_method s4 = SetTo ByPercentage /\ szc_method s5 = Keep.
Proof. exact zone_method_differs. Qed.
Print Assumptions C19_zone_method_refuted.

(* the differences are the documented ones: away / sleep and intelligent auto exist on
   AirTouch 5 only (refused on AirTouch 4) *)
Theorem C19_documented_differences : forall a4 a5, wf_ac4 a4 -> wf_ac5 a5 ->
  set_power4 a4 PC_Away = Refused /\ set_power4 a4 PC_Sleep = Refused /\ set_fan4 a4 PF_IntelligentAuto = Refused /\
  (exists m p, set_power5 a5 PC_Away = Sent m p) /\ (exists m p, set_power5 a5 PC_Sleep = Sent m p).
Proof.
  intros a4 a5 W4 W5. split; [exact (set_power4_spec a4 PC_Away W4)|]. split; [exact (set_power4_spec a4 PC_Sleep W4)|].
  split.
  - pose proof (set_fan4_spec a4 PF_IntelligentAuto W4) as S. destruct W4 as [_ [Hf _]]. now rewrite (fan_bit_ia4 _ Hf) in S.
  - split; [destruct (set_power5_spec a5 PC_Away W5) as [m [E _]]|destruct (set_power5_spec a5 PC_Sleep W5) as [m [E _]]];
      eexists; eexists; exact E.
Qed.
Print Assumptions C19_documented_differences.

(* non-vacuity: a common AC state *)
Example C19_witness :
  wf_k (mkKAc 1 [85] [true; true; false; true; true] [true; false; true; true; true; false; true] 16 30
              true AMS_AutoCool AFS_Turbo true false 24 225 0 (mkTD 1 (mkTS true 0 0) (mkTS false 7 30)) None).
Proof. unfold wf_k, kac_ok. cbn. repeat split; lia || reflexivity. Qed.
