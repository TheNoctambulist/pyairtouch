(* C15 — Shutdown is final, leak-free and reversible (socket level). *)
From Coq Require Import ZArith List Bool Lia.
From PV Require Import sock.Sock sock.SockProofs.
Import ListNotations.
Open Scope Z_scope.

(* leak-free: closing from ANY invariant state (mid-dial, during back-off, connected,
   with messages pending) leaves no connect task, no link (reader), no pending message *)
Theorem C15_no_leak : forall s, SInv s -> closed_state (fst (step s OClose)).
Proof. exact close_closed. Qed.
Print Assumptions C15_no_leak.

(* final: after close, for every continuation that does not re-open — arbitrary clock
   advances, network events, peer events, sends — the only events are send errors and
   the passing of time: no dial, no open, no write, no notification *)
Theorem C15_final : forall s ops,
  SInv s -> forallb not_open_op ops = true ->
  let s0 := fst (step s OClose) in
  closed_state (fst (run s0 ops)) /\ forallb silent_ev (concat (snd (run s0 ops))) = true.
Proof. intros s ops HI Hno. exact (run_closed _ ops (close_closed s HI) Hno). Qed.
Print Assumptions C15_final.

(* sending on the closed client raises the not-open error (or NotImplemented for a
   message without encoder, which is raised first) and holds nothing *)
Theorem C15_send_refused : forall s k cls r l s' evs,
  closed_state s -> step s (OSend k cls r l) = (s', evs) ->
  closed_state s' /\ evs = [ESendErr (match cls with EncNoEncoder => 1 | _ => 2 end)].
Proof.
  intros s k cls r l s' evs HC H. pose proof (send_closed s k cls r l HC) as P. cbn [step] in H. now rewrite H in P.
Qed.
Print Assumptions C15_send_refused.

(* every connection that was opened has been closed once close() returns: the walk of
   the whole trace ends holding nothing *)
Theorem C15_all_closed : forall pid0 ops,
  walk [] (trace (init pid0) (ops ++ [OClose])) = Some [].
Proof. exact trace_close_holds_nothing. Qed.
Print Assumptions C15_all_closed.

(* reversible: the state after close equals a fresh client's state up to the packet
   counter, the connection counter, the send ordinal, the clock and the environment *)
Theorem C15_reversible_state : forall s, SInv s -> s_open s = true ->
  fst (step s OClose) =
  mkS false None [] None [] (s_now s) (s_pid s) (s_ncid s) (s_nsend s) (s_accept s) (s_lat s) (s_failw s).
Proof. intros s HI Ho. cbn. rewrite Ho. reflexivity. Qed.
Print Assumptions C15_reversible_state.

(* ... and the model's behaviour does not depend on those counters except through the
   identifiers it prints: re-opening dials exactly like a fresh client *)
Theorem C15_reopen_like_fresh : forall s, closed_state s ->
  step s OOpen =
  (mkS true None [] (Some (s_now s + s_lat s)) [] (s_now s) (s_pid s) (s_ncid s) (s_nsend s)
       (s_accept s) (s_lat s) (s_failw s), [EDial]).
Proof. intros s [C1 [C2 [C3 [C4 C5]]]]. cbn. rewrite C1, C2, C4, C5. reflexivity. Qed.
Print Assumptions C15_reopen_like_fresh.

(* non-vacuity: close during back-off with a message pending, long idle, re-open *)
Example C15_witness :
  let ops := [OOpen; ONet false 1; OAdv 5; OSend 0 EncOk 2 30720; OClose; OAdv 5000; OAdv 50000;
              OSend 0 EncOk 2 30720; ONet true 1; OAdv 5000; OOpen; OAdv 5] in
  concat (snd (run (init 0) ops)) =
  [EDial; ERefused; ETime 1; EAccept 0 0 0 2 30721; ESendOk; ENotify false; ETime 5001; ETime 55001;
   ESendErr 2; ETime 60001; EDial; EOpen 0; ENotify true; ETime 60002].
Proof. vm_compute. reflexivity. Qed.
Print Assumptions C15_witness.
