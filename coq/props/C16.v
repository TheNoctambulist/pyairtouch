(* C16 — Pending-message buffer is bounded and overflow is explicit. *)
From Coq Require Import ZArith List Bool Lia.
From PV Require Import sock.Sock sock.SockProofs sock.Drain sock.DrainProofs.
Import ListNotations.
Open Scope Z_scope.

(* at most ten messages are held in every reachable state (any stimulus list) *)
Theorem C16_bound : forall pid0 ops,
  (length (s_queue (fst (run (init pid0) ops))) <= 10)%nat.
Proof. intros pid0 ops. exact (si_bound _ (reachable_SInv pid0 ops)). Qed.
Print Assumptions C16_bound.

(* the eleventh unexpired message is refused and the held ones are untouched
   (the queue afterwards is exactly the unexpired part of the queue before) *)
Theorem C16_overflow : forall s k cls r life,
  s_open s = true -> cls <> EncNoEncoder ->
  (10 <= length (filter (unexpired (s_now s)) (s_queue s)))%nat ->
  snd (step s (OSend k cls r life)) = [ESendErr 3] /\
  s_queue (fst (step s (OSend k cls r life))) = filter (unexpired (s_now s)) (s_queue s).
Proof. exact send_overflow. Qed.
Print Assumptions C16_overflow.

(* expired entries are discarded before the capacity check: with fewer than ten
   unexpired entries the message is accepted whatever the raw queue length *)
Theorem C16_expired_first : forall s k cls r life,
  s_open s = true -> s_link s = None -> cls <> EncNoEncoder ->
  (length (filter (unexpired (s_now s)) (s_queue s)) < 10)%nat ->
  snd (step s (OSend k cls r life)) = [EAccept (s_nsend s) k (s_pid s) r (s_now s + life); ESendOk] /\
  s_queue (fst (step s (OSend k cls r life))) =
    filter (unexpired (s_now s)) (s_queue s) ++ [mkEntry (s_nsend s) k cls (s_pid s) r (s_now s + life)].
Proof. exact send_queued. Qed.
Print Assumptions C16_expired_first.

(* ... and an expired message is never transmitted: every write in every run happens
   strictly before the expiry announced when that very message was accepted *)
Theorem C16_expired_never_written : forall pid0 ops c i k pid t,
  In (EWrote c i k pid t) (trace (init pid0) ops) ->
  exists r exp, In (EAccept i k pid r exp) (trace (init pid0) ops) /\ t < exp.
Proof. intros pid0 ops. exact (j_wrote _ _ _ (trace_J pid0 ops)). Qed.
Print Assumptions C16_expired_never_written.

(* sending on a client that is not open raises NotOpen and holds nothing *)
Theorem C16_not_open : forall s k cls r life,
  s_open s = false -> cls <> EncNoEncoder ->
  snd (step s (OSend k cls r life)) = [ESendErr 2] /\
  s_queue (fst (step s (OSend k cls r life))) = s_queue s /\
  s_link (fst (step s (OSend k cls r life))) = s_link s /\
  s_dial (fst (step s (OSend k cls r life))) = s_dial s /\
  s_sleeps (fst (step s (OSend k cls r life))) = s_sleeps s.
Proof. exact send_not_open. Qed.
Print Assumptions C16_not_open.

(* non-vacuity: a concrete run reaches a state holding ten messages in which the
   eleventh is refused, and after the first one expired the next is accepted *)
Definition c16_fill : list op :=
  OOpen :: ONet false 1 :: OSend 0 EncOk 0 1024 :: repeat (OSend 1 EncOk 2 30720) 9.
Example C16_witness :
  let s := fst (run (init 7) c16_fill) in
  s_open s = true /\ length (s_queue s) = 10%nat /\
  snd (step s (OSend 2 EncOk 2 30720)) = [ESendErr 3] /\
  snd (step (fst (step (fst (step s (OAdv 1024))) (OAdv 1024))) (OSend 2 EncOk 2 30720))
    = [EAccept 10 2 17 2 (1025 + 30720); ESendOk].
Proof. vm_compute. repeat split; reflexivity. Qed.
Print Assumptions C16_witness.

(* ---- under transport back-pressure (coq/sock/Drain.v): never more than ten entries are held, whatever is sent
   while drain() is blocked or the link is down; expired entries are discarded and never transmitted *)
Theorem C16_backpressure_bound : forall c ops s tr, drun (dinit c) ops = Some (s, tr) -> (length (d_queue s) <= 10)%nat.
Proof. exact drain_bound. Qed.
Print Assumptions C16_backpressure_bound.

Theorem C16_backpressure_expired_never_sent : forall c ops s tr i t,
  drun (dinit c) ops = Some (s, tr) -> In (DWrote i t) tr -> exists x, In (DAccept i x) tr /\ t < x.
Proof. exact drain_expiry. Qed.
Print Assumptions C16_backpressure_expired_never_sent.
