(* C08 — Heartbeat detects a dead link, and only a dead link. *)
From Coq Require Import ZArith List Bool Lia.
From PV Require Import hb.Heartbeat hb.HeartbeatProofs.
From PV Require Import observed.Obs_C08.
Import ListNotations.
Open Scope Z_scope.

(* the defaults observed from /repo on this run (HeartbeatConfig of the package):
   300 s and 330 s in ticks of 2^-10 s *)
Theorem C08_observed_defaults : obs_interval = 300 * 1024 /\ obs_timeout = 330 * 1024.
Proof. vm_compute. split; reflexivity. Qed.
Print Assumptions C08_observed_defaults.

(* period: for all interval, timeout > 0 — a heartbeat is handed to the socket only at an
   instant start + k * interval ... *)
Theorem C08_period_only : forall interval timeout, 0 < interval -> 0 < timeout ->
  forall t0 s o t, HInv interval timeout t0 s -> h_run s = true ->
  In (HSend t) (snd (hstep interval timeout s o)) -> exists k, 0 <= k /\ t = t0 + k * interval.
Proof. intros interval timeout _ _. exact (step_sends interval timeout). Qed.
Print Assumptions C08_period_only.

(* ... and at every such instant reached while connected one is sent *)
Theorem C08_period_every : forall interval timeout s dt, h_run s = true ->
  h_next s <= h_dead s -> h_next s <= h_now s + dt ->
  hstep interval timeout s (HAdv dt true) =
  (mkH true (h_next s + interval) (h_dead s) (h_next s), [HSend (h_next s); HTime (h_next s)]).
Proof. intros interval timeout s dt. exact (adv_send interval timeout s dt true). Qed.
Print Assumptions C08_period_every.

(* the invariant (next heartbeat = start + k*interval, k >= 1; timers not in the past;
   deadline at most one timeout away) holds from start() on, for all stimuli *)
Theorem C08_invariant_start : forall interval timeout, 0 < interval -> 0 < timeout ->
  forall s c, h_run s = false -> HInv interval timeout (h_now s) (fst (hstep interval timeout s (HStart c))).
Proof. intros; eapply start_inv; eassumption. Qed.
Print Assumptions C08_invariant_start.

Theorem C08_invariant_step : forall interval timeout, 0 < interval -> 0 < timeout ->
  forall t0 s o, HInv interval timeout t0 s -> h_run s = true -> valid_hop o = true ->
  HInv interval timeout t0 (fst (hstep interval timeout s o)).
Proof. intros; eapply step_inv; eassumption. Qed.
Print Assumptions C08_invariant_step.

(* detection.  The deadline is armed by start(), by every response, and again by every
   timeout, always one full timeout ahead: *)
Theorem C08_armed_by_start : forall interval timeout s c, h_run s = false ->
  h_dead (fst (hstep interval timeout s (HStart c))) = h_now s + timeout /\
  snd (hstep interval timeout s (HStart c)) = (if c then [HSend (h_now s)] else []).
Proof. exact start_arms. Qed.
Print Assumptions C08_armed_by_start.

Theorem C08_armed_by_response : forall interval timeout s, h_run s = true ->
  h_dead (fst (hstep interval timeout s HResp)) = h_now s + timeout /\
  snd (hstep interval timeout s HResp) = [].
Proof. exact resp_arms. Qed.
Print Assumptions C08_armed_by_response.

Theorem C08_armed_by_timeout : forall interval timeout s dt c, h_run s = true ->
  h_dead s < h_next s -> h_dead s <= h_now s + dt ->
  hstep interval timeout s (HAdv dt c) =
  (mkH true (h_next s) (h_dead s + timeout) (h_dead s),
   (if c then [HReset (h_dead s)] else []) ++ [HTime (h_dead s)]).
Proof. exact adv_deadline. Qed.
Print Assumptions C08_armed_by_timeout.

(* ... and with no response and no stop, on a connected client, time cannot pass the
   deadline D without a reset at exactly D — for every sequence of clock advances *)
Theorem C08_detects : forall interval timeout, 0 < interval -> forall s ops,
  h_run s = true -> h_now s <= h_dead s -> h_now s <= h_next s ->
  forallb silent_connected ops = true ->
  h_dead s < h_now (fst (hrun interval timeout s ops)) ->
  In (HReset (h_dead s)) (snd (hrun interval timeout s ops)).
Proof. exact detects. Qed.
Print Assumptions C08_detects.

(* quietness: while every heartbeat is answered after a delay d with
   0 <= d < timeout - interval (and d < interval), for any number of rounds, the
   heartbeat never resets the connection *)
Theorem C08_quiet : forall interval timeout, 0 < interval -> 0 < timeout ->
  forall ds s, after_send interval timeout s -> interval < timeout ->
  Forall (fun d => 0 <= d /\ d < timeout - interval /\ d < interval) ds ->
  no_reset (snd (hrun interval timeout s (concat (map (round interval) ds)))).
Proof. intros; eapply quiet; eassumption. Qed.
Print Assumptions C08_quiet.

Theorem C08_quiet_from_start : forall interval timeout, 0 < interval -> forall s, h_run s = false -> interval < timeout ->
  after_send interval timeout (fst (hstep interval timeout s (HStart true))).
Proof. intros interval timeout Hi s Hr _. now apply start_after_send. Qed.
Print Assumptions C08_quiet_from_start.

(* the statement with the package's numbers: answered within 30 s => never reset *)
Corollary C08_quiet_defaults : forall ds s,
  after_send 307200 337920 s ->
  Forall (fun d => 0 <= d /\ d < 30720) ds ->
  no_reset (snd (hrun 307200 337920 s (concat (map (round 307200) ds)))).
Proof.
  intros ds s Ha Hf. apply C08_quiet; try lia; [exact Ha|].
  eapply Forall_impl; [|exact Hf]. cbn. intros d [A B]. lia.
Qed.
Print Assumptions C08_quiet_defaults.

(* non-vacuity: silence from the first heartbeat => resets at 330 s, 660 s, ...;
   three answered rounds then silence => reset 330 s after the last answer *)
Example C08_witness :
  snd (hrun 307200 337920 hinit [HStart true; HAdv 999999 true; HAdv 999999 true; HAdv 999999 true; HAdv 999999 true])
  = [HSend 0; HSend 307200; HTime 307200; HReset 337920; HTime 337920; HSend 614400; HTime 614400;
     HReset 675840; HTime 675840] /\
  forallb silent_connected [HAdv 999999 true; HAdv 999999 true] = true.
Proof. vm_compute. split; reflexivity. Qed.
Print Assumptions C08_witness.
