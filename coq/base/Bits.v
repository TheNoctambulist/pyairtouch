(* Bits.v — bit fields.  The encoders build a byte or half-word as [N.shiftl hi k + lo] with [lo < 2^k]; every
   mask, shift or bit test on it reads one of the two parts (fields of three or more parts: the same again on hi or lo).
   Masks are arguments with an equation (m = N.ones k), closed by eq_refl, because rewrite matches numerals
   syntactically: the instance then mentions 0xC0 where the model does. *)
From Coq Require Import ZArith Bool Lia.
From PV Require Import base.Res.
Open Scope N_scope.

Lemma land_low x k m : m = N.ones k -> x < 2^k -> N.land x m = x.
Proof. intros -> H. rewrite N.land_ones. now apply N.mod_small. Qed.

Lemma land_le a m : N.land a m <= a.
Proof.
  assert (D : N.land (N.ldiff a m) (N.land a m) = 0).
  { rewrite (N.land_comm a m), N.land_assoc, N.land_ldiff. apply N.land_0_l. }
  rewrite <- (N.lor_ldiff_and a m) at 2. rewrite <- (N.lxor_lor _ _ D), <- (N.add_nocarry_lxor _ _ D). lia.
Qed.

Lemma land_lt_ne x m : x < m -> N.land x m =? m = false.
Proof. intros H. apply N.eqb_neq. intros E. pose proof (land_le x m). lia. Qed.

Lemma bit_testbit v j : bit v j = N.testbit v j.
Proof.
  unfold bit. rewrite N.shiftl_1_l. destruct (N.testbit v j) eqn:E.
  - apply N.eqb_eq, N.bits_inj. intros i. rewrite N.land_spec, N.pow2_bits_eqb.
    destruct (N.eqb_spec j i) as [<-|_]; [now rewrite E|apply andb_false_r].
  - apply N.eqb_neq. intros C. apply (f_equal (fun x => N.testbit x j)) in C.
    rewrite N.land_spec, E, N.pow2_bits_true in C. discriminate.
Qed.

Section Cat.
  Variables hi lo k : N.
  Hypothesis Hlo : lo < 2^k.

  Lemma cat_lt w : hi < 2^w -> N.shiftl hi k + lo < 2^(k + w).
  Proof. intros H. rewrite N.shiftl_mul_pow2, N.pow_add_r. nia. Qed.

  Lemma cat_mod : (N.shiftl hi k + lo) mod 2^k = lo.
  Proof.
    rewrite N.shiftl_mul_pow2, N.add_comm, N.mod_add by (apply N.pow_nonzero; discriminate).
    now apply N.mod_small.
  Qed.

  Lemma cat_div : N.shiftr (N.shiftl hi k + lo) k = hi.
  Proof.
    rewrite N.shiftr_div_pow2, N.shiftl_mul_pow2, N.div_add_l by (apply N.pow_nonzero; discriminate).
    rewrite N.div_small by exact Hlo. apply N.add_0_r.
  Qed.

  (* a mask below bit k *)
  Lemma cat_low m : m < 2^k -> N.land (N.shiftl hi k + lo) m = N.land lo m.
  Proof.
    intros Hm. rewrite <- (land_low m k _ eq_refl Hm), (N.land_comm m), !N.land_assoc.
    now rewrite !N.land_ones, cat_mod, (N.mod_small lo).
  Qed.

  (* a mask from bit k upward, shifted down *)
  Lemma cat_high m mk : mk = N.shiftl m k -> N.shiftr (N.land (N.shiftl hi k + lo) mk) k = N.land hi m.
  Proof. intros ->. now rewrite N.shiftr_land, cat_div, N.shiftr_shiftl_l, N.sub_diag, N.shiftl_0_r by apply N.le_refl. Qed.

  Lemma cat_bit_low j : j < k -> bit (N.shiftl hi k + lo) j = bit lo j.
  Proof.
    intros Hj. unfold bit. rewrite cat_low; [reflexivity|].
    rewrite N.shiftl_1_l. apply N.pow_lt_mono_r; [reflexivity|exact Hj].
  Qed.

  Lemma cat_bit_high j i : j = k + i -> bit (N.shiftl hi k + lo) j = bit hi i.
  Proof. intros ->. now rewrite !bit_testbit, (N.add_comm k i), <- N.shiftr_spec', cat_div. Qed.
End Cat.

(* both parts masked into place: no condition on hi and lo *)
Lemma cat_masked k w mh ml hi lo : mh = N.shiftl (N.ones w) k -> ml = N.ones k ->
  let b := N.land (N.shiftl hi k) mh + N.land lo ml in
  b < 2^(k + w) /\ N.land b ml = lo mod 2^k /\ N.shiftr (N.land b mh) k = hi mod 2^w.
Proof.
  intros -> ->. cbn zeta. rewrite <- N.shiftl_land, !(N.land_ones hi), !(N.land_ones lo).
  assert (Hlo : lo mod 2^k < 2^k) by (apply N.mod_lt, N.pow_nonzero; discriminate).
  assert (Hhi : hi mod 2^w < 2^w) by (apply N.mod_lt, N.pow_nonzero; discriminate).
  split; [exact (cat_lt _ _ _ Hlo _ Hhi)|]. split; [rewrite N.land_ones; exact (cat_mod _ _ _ Hlo)|].
  rewrite (cat_high _ _ _ Hlo _ _ eq_refl). exact (land_low _ w _ eq_refl Hhi).
Qed.

(* both parts in range, hi written unmasked *)
Lemma cat_field k w mh ml hi lo : mh = N.shiftl (N.ones w) k -> ml = N.ones k -> hi < 2^w -> lo < 2^k ->
  let b := N.shiftl hi k + N.land lo ml in
  b < 2^(k + w) /\ N.land b ml = lo /\ N.shiftr (N.land b mh) k = hi.
Proof.
  intros Eh El Hh Hl. pose proof (cat_masked k w mh ml hi lo Eh El) as C. cbn zeta in *.
  rewrite (N.mod_small hi), (N.mod_small lo) in C by assumption. subst mh.
  now rewrite <- N.shiftl_land, (land_low hi w _ eq_refl Hh) in C.
Qed.

(* a flag above a field *)
Lemma b2n_shiftl s j : b2n s j = N.shiftl (N.b2n s) j.
Proof. destruct s; [reflexivity|symmetry; apply N.shiftl_0_l]. Qed.

Lemma flag_over s j lo : lo < 2^j ->
  let b := b2n s j + lo in
  b < 2^(j + 1) /\ bit b j = s /\ (forall m, m < 2^j -> N.land b m = N.land lo m) /\ (forall i, i < j -> bit b i = bit lo i).
Proof.
  intros H. cbn zeta. rewrite b2n_shiftl. split; [apply (cat_lt _ _ _ H 1); now destruct s|].
  split; [rewrite (cat_bit_high _ _ _ H j 0) by (now rewrite N.add_0_r); now destruct s|].
  split; [intros m; now apply cat_low|intros i; now apply cat_bit_low].
Qed.

Lemma flag_alone s j : b2n s j < 2^(j + 1) /\ bit (b2n s j) j = s.
Proof.
  pose proof (flag_over s j 0) as F. cbn zeta in F. rewrite N.add_0_r in F.
  split; apply F, N.neq_0_lt_0, N.pow_nonzero; discriminate.
Qed.

(* the decoders read a two-byte word as b1 * 256 + b0: the same word written lo + hi * 2^k *)
Lemma testbit_word lo hi k g : lo < 2 ^ k ->
  N.testbit (lo + hi * 2 ^ k) g = if g <? k then N.testbit lo g else N.testbit hi (g - k).
Proof.
  intros H. assert (2 ^ k <> 0) by now apply N.pow_nonzero. destruct (N.ltb_spec g k) as [L|L].
  - now rewrite <- (N.mod_pow2_bits_low _ k g L), N.mod_add, N.mod_small.
  - rewrite <- (N.sub_add k g L) at 1. now rewrite <- N.div_pow2_bits, N.div_add, N.div_small.
Qed.

Lemma land_high lo hi m k : lo < 2 ^ k -> N.land (lo + hi * 2 ^ k) (m * 2 ^ k) = N.land hi m * 2 ^ k.
Proof.
  intros H. apply N.bits_inj. intros n. rewrite N.land_spec, (testbit_word lo hi k n H).
  destruct (N.ltb_spec n k) as [L|L].
  - now rewrite !N.mul_pow2_bits_low, andb_false_r.
  - now rewrite !N.mul_pow2_bits_high, N.land_spec.
Qed.

(* & << >> on non-negative Z are those of N *)
Lemma of_N_land a b : Z.of_N (N.land a b) = Z.land (Z.of_N a) (Z.of_N b).
Proof. destruct a, b; reflexivity. Qed.
Lemma of_N_shiftr a n : Z.of_N (N.shiftr a n) = Z.shiftr (Z.of_N a) (Z.of_N n).
Proof. rewrite N.shiftr_div_pow2, Z.shiftr_div_pow2, N2Z.inj_div, N2Z.inj_pow by lia. reflexivity. Qed.
Lemma of_N_shiftl a n : Z.of_N (N.shiftl a n) = Z.shiftl (Z.of_N a) (Z.of_N n).
Proof. rewrite N.shiftl_mul_pow2, Z.shiftl_mul_pow2, N2Z.inj_mul, N2Z.inj_pow by lia. reflexivity. Qed.

Lemma be16_div_mod v : v / 256 * 256 + v mod 256 = v.
Proof. rewrite N.mul_comm. symmetry. apply N.div_mod. discriminate. Qed.
