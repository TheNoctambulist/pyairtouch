(* ListX.v — list facts several regions share: how a check over [below n] is used, firstn/skipn at the
   seam of an append, and the C strings of Res.v (cstring, pad_to).  nul_free is no proof device: dom4 and dom5
   (Codec4Proofs, Codec5Proofs) ask it of the NUL-padded names, so it is in the statements of props/C03.v and in
   what extract/Doms.v extracts. *)
From Coq Require Import NArith List Bool Lia.
From PV Require Import base.Res.
Import ListNotations.
Open Scope N_scope.

Lemma below_in i n : i < N.of_nat n -> In i (below n).
Proof. intros H. apply in_map_iff. exists (N.to_nat i). split; [apply N2Nat.id|]. apply in_seq. lia. Qed.

Lemma below_forall (f : N -> bool) n :
  forallb f (below n) = true -> forall i, i < N.of_nat n -> f i = true.
Proof. intros H i Hi. exact (proj1 (forallb_forall _ _) H i (below_in i n Hi)). Qed.

Lemma below_cases (P : N -> Prop) n : Forall P (below n) -> forall c, c < N.of_nat n -> P c.
Proof. intros H c Hc. exact (proj1 (Forall_forall _ _) H c (below_in c n Hc)). Qed.

(* a finite case split over the values below n, every case by computation *)
Ltac by_cases n :=
  apply (below_cases _ n); repeat (apply Forall_cons; [reflexivity|]); apply Forall_nil.

Lemma firstn_app_le {A} n (a b : list A) : (n <= length a)%nat -> firstn n (a ++ b) = firstn n a.
Proof. intros H. rewrite firstn_app. replace (n - length a)%nat with 0%nat by lia. apply app_nil_r. Qed.

Lemma skipn_app_le {A} n (a b : list A) : (n <= length a)%nat -> skipn n (a ++ b) = skipn n a ++ b.
Proof. intros H. rewrite skipn_app. now replace (n - length a)%nat with 0%nat by lia. Qed.

Lemma firstn_app_exact {A} (a b : list A) : firstn (length a) (a ++ b) = a.
Proof. now rewrite firstn_app_le, firstn_all. Qed.

Lemma skipn_app_exact {A} (a b : list A) : skipn (length a) (a ++ b) = b.
Proof. now rewrite skipn_app_le, skipn_all. Qed.

(* primed: Coq 8.16 has no List.skipn_skipn; later versions do, with the sum written x + y *)
Lemma skipn_skipn' {A} (x y : nat) (l : list A) : skipn x (skipn y l) = skipn (y + x) l.
Proof.
  revert l. induction y as [|y IH]; intros l; [reflexivity|].
  destruct l as [|a l]; [now rewrite !skipn_nil|]. cbn [skipn Nat.add]. apply IH.
Qed.

Definition nul_free (s : list N) : bool := forallb (fun b => negb (b =? 0)) s.

Lemma cstring_app_nul s k : nul_free s = true -> cstring (s ++ repeat 0 k) = s.
Proof.
  induction s as [|b s IH]; cbn; intros H.
  - destruct k; reflexivity.
  - apply andb_prop in H as [Hb Hs]. apply negb_true_iff in Hb. rewrite Hb. now rewrite (IH Hs).
Qed.

Lemma firstn_repeat {A} (x : A) k n : (k <= n)%nat -> firstn k (repeat x n) = repeat x k.
Proof.
  revert n. induction k as [|k IH]; intros n H; [reflexivity|].
  destruct n as [|n]; [lia|]. cbn. f_equal. apply IH. lia.
Qed.

Lemma pad_to_short n s : (length s <= n)%nat -> pad_to n s = s ++ repeat 0 (n - length s).
Proof.
  intros H. unfold pad_to. rewrite firstn_app. rewrite firstn_all2 by exact H. f_equal.
  apply firstn_repeat. lia.
Qed.

Lemma pad_to_length n s : length (pad_to n s) = n.
Proof. unfold pad_to. rewrite firstn_length, app_length, repeat_length. lia. Qed.

Lemma cstring_pad n s : nul_free s = true -> (length s <= n)%nat -> cstring (pad_to n s) = s.
Proof. intros H L. rewrite (pad_to_short n s L). now apply cstring_app_nul. Qed.
