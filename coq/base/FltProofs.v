(* FltProofs.v — encode after decode is the identity in the binary64 arithmetic of Flt.v, on every raw value a
   temperature or set-point field carries: two sweeps by evaluation, then the AT4 field and the floats nearest
   to k tenths as corollaries. *)
From Coq Require Import ZArith List Lia.
From PV Require Import base.Flt.
Open Scope Z_scope.

Lemma zr_in n : forall lo v, lo <= v < lo + Z.of_nat n -> In v (zr lo n).
Proof.
  induction n as [|n IH]; intros lo v H; [lia|]. cbn [zr]. destruct (Z.eq_dec lo v) as [E|E]; [left; exact E|].
  right. apply IH. lia.
Qed.
Lemma zrange_in lo n v : lo <= v < lo + n -> In v (zrange lo n).
Proof. intros H. unfold zrange. apply zr_in. lia. Qed.

Lemma sweep_elim (f : Z -> bool) lo n : forallb f (zrange lo n) = true -> forall v, lo <= v < lo + n -> f v = true.
Proof. intros S v H. rewrite forallb_forall in S. apply S, zrange_in, H. Qed.

(* the hypothesis is chk_sp5 r / chk_temp5 r (Flt.v) unfolded *)
Lemma chk_elim (o : option Z) r : match o with Some r' => r' =? r | None => false end = true -> o = Some r.
Proof. destruct o as [r'|]; [|discriminate]. intros E. apply Z.eqb_eq in E. now subst. Qed.

(* The two facts about binary64 arithmetic everything else rests on, each checked by evaluation on every value
   of its range (finite by nature: no argument about rounding is attempted).
   sweep_temp5 starts at raw = -1000, that is -150.0 degC: the AT5 encoders mask int(t*10 + 500) with 0x7FF
   (Codec5.enc_temp11), so a negative sum is an input they take (C03_float_encoder_temperature_5 is stated from
   -1500 tenths), and on it int() truncates toward zero, not downward.  3048 = 1000 + 2048: raw runs up to 2047,
   the top of the 11-bit field. *)
Lemma sweep_sp5 : forallb chk_sp5 (zrange 0 256) = true. Proof. vm_compute. reflexivity. Qed.
Lemma sweep_temp5 : forallb chk_temp5 (zrange (-1000) 3048) = true. Proof. vm_compute. reflexivity. Qed.

Lemma sp5_float_roundtrip r : 0 <= r < 256 -> f_enc_sp5 (f_dec_sp5 r) = Some r.
Proof. intros H. apply chk_elim, (sweep_elim chk_sp5 0 256 sweep_sp5). lia. Qed.

Lemma temp5_float_roundtrip r : -1000 <= r < 2048 -> f_enc_temp5 (f_dec_temp5 r) = Some r.
Proof. intros H. apply chk_elim, (sweep_elim chk_temp5 (-1000) 3048 sweep_temp5). lia. Qed.

(** what the encoders make of the float nearest to k tenths is k shifted by the offset: the integer model
    of Codec4 / Codec5 (tenths in Z) is what the float code computes *)
Lemma sp5_of_tenths k : 100 <= k < 356 -> f_enc_sp5 (f_tenths k) = Some (k - 100).
Proof. intros H. replace (f_tenths k) with (f_dec_sp5 (k - 100)) by (unfold f_dec_sp5, f_tenths; do 2 f_equal; lia). apply sp5_float_roundtrip. lia. Qed.
Lemma enc_temp5_tenths k : -1500 <= k < 1548 -> f_enc_temp5 (f_tenths k) = Some (k + 500).
Proof. intros H. replace (f_tenths k) with (f_dec_temp5 (k + 500)) by (unfold f_dec_temp5, f_tenths; do 2 f_equal; lia). apply temp5_float_roundtrip. lia. Qed.
Lemma temp5_of_tenths k : -500 <= k < 1548 -> f_enc_temp5 (f_tenths k) = Some (k + 500).
Proof. intros H. apply enc_temp5_tenths. lia. Qed.

(* an 11-bit value shifted into bits 5..15 passes the mask 0xFFE0 unchanged and shifts back *)
Lemma field11_mask v : 0 <= v < 2048 -> Z.land (Z.shiftl v 5) 65504 = Z.shiftl v 5.
Proof.
  intros H. change 65504 with (Z.shiftl (Z.ones 11) 5). rewrite <- Z.shiftl_land, Z.land_ones by lia.
  now rewrite Z.mod_small.
Qed.

(** every 11-bit temperature field value survives decode-then-encode in binary64 arithmetic: the AT4 code is
    the AT5 code between a mask-and-shift and its inverse *)
Lemma temp4_float_roundtrip v : 0 <= v < 2048 -> f_enc_temp4 (f_dec_temp4 (Z.shiftl v 5)) = Some (Z.shiftl v 5).
Proof.
  intros H. unfold f_dec_temp4, f_enc_temp4. rewrite (field11_mask v H), Z.shiftr_shiftl_l, Z.sub_diag by lia.
  change (Z.shiftl v 0) with v. fold (f_dec_temp5 v) (f_enc_temp5 (f_dec_temp5 v)).
  rewrite temp5_float_roundtrip by lia. cbn [option_map]. now rewrite field11_mask.
Qed.
