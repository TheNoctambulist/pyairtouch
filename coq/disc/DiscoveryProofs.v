(* DiscoveryProofs.v — decoding of discovery datagrams and the request schedule. *)
From Coq Require Import ZArith List Bool.
From PV Require Import base.Utf8 disc.Discovery.
Import ListNotations.
Open Scope N_scope.

Lemma bytes_eqb_eq a : forall b, bytes_eqb a b = true <-> a = b.
Proof.
  induction a as [|x a IH]; intros [|y b]; cbn; split; intros H; try discriminate; try reflexivity.
  - apply andb_prop in H as [H1 H2]. apply N.eqb_eq in H1. apply IH in H2. now subst.
  - inversion H; subst. rewrite N.eqb_refl. cbn. now apply IH.
Qed.

Lemma bytes_eqb_refl a : bytes_eqb a a = true.
Proof. now apply bytes_eqb_eq. Qed.

Lemma bytes_eqb_sym a b : bytes_eqb a b = bytes_eqb b a.
Proof. apply eq_true_iff_eq. rewrite !bytes_eqb_eq. split; intros ->; reflexivity. Qed.

Definition comma_free (l : list N) : Prop := ~ In comma l.

Lemma comma_free_cons b p : comma_free (b :: p) <-> (b =? comma) = false /\ comma_free p.
Proof. unfold comma_free. cbn. rewrite N.eqb_neq. tauto. Qed.

Lemma bytes_eqb_comma a r q : comma_free q -> bytes_eqb (a ++ comma :: r) q = false.
Proof.
  intros F. destruct (bytes_eqb _ q) eqn:E; [|reflexivity].
  apply bytes_eqb_eq in E. destruct F. rewrite <- E. apply in_elt.
Qed.

Lemma break_comma_app p r : comma_free p -> break_comma (p ++ comma :: r) = (p, Some r).
Proof.
  induction p as [|b p IH]; cbn; [reflexivity|]. intros [E F]%comma_free_cons. now rewrite E, IH.
Qed.

Lemma break_comma_none p : comma_free p -> break_comma p = (p, None).
Proof.
  induction p as [|b p IH]; cbn; [reflexivity|]. intros [E F]%comma_free_cons. now rewrite E, IH.
Qed.

Lemma break_comma_inv l : forall p o, break_comma l = (p, o) ->
  comma_free p /\ match o with Some r => l = p ++ comma :: r | None => l = p end.
Proof.
  induction l as [|b l IH]; cbn; intros p o H.
  - injection H as <- <-. split; [intros []|reflexivity].
  - destruct (b =? comma) eqn:E.
    + apply N.eqb_eq in E as ->. injection H as <- <-. split; [intros []|reflexivity].
    + destruct (break_comma l) as [p' o']. injection H as <- <-.
      destruct (IH _ _ eq_refl) as [F L]. split; [now apply comma_free_cons|].
      destruct o'; cbn; now rewrite <- L.
Qed.

Lemma is_prefix_app p l : is_prefix p (p ++ l) = true.
Proof. induction p as [|x p IH]; cbn; [reflexivity|]. now rewrite N.eqb_refl. Qed.

Lemma contains_app a p l : contains p (a ++ p ++ l) = true.
Proof.
  induction a as [|x a IH]; cbn [app].
  - destruct (p ++ l) eqn:E; cbn; rewrite <- ?E, is_prefix_app; reflexivity.
  - cbn [contains]. rewrite IH. apply orb_true_r.
Qed.

(* match(): the id between commas is found where the vendor format puts it *)
Lemma contains_id host serial id r :
  contains ([comma] ++ id ++ [comma]) (host ++ comma :: serial ++ comma :: id ++ comma :: r) = true.
Proof.
  replace (host ++ comma :: serial ++ comma :: id ++ comma :: r)
    with ((host ++ comma :: serial) ++ ([comma] ++ id ++ [comma]) ++ r)
    by (repeat (rewrite <- app_assoc; cbn [app]); reflexivity).
  apply contains_app.
Qed.

Definition dgram4 (host serial aid : list N) : list N :=
  host ++ comma :: serial ++ comma :: ID4 ++ comma :: aid.

Definition dgram5 (host serial aid name : list N) : list N :=
  host ++ comma :: serial ++ comma :: ID5 ++ comma :: aid ++ comma :: name.

Lemma ID4_comma_free : comma_free ID4. Proof. cbv. intuition discriminate. Qed.
Lemma ID5_comma_free : comma_free ID5. Proof. cbv. intuition discriminate. Qed.
Lemma REQ4_comma_free : comma_free REQ4. Proof. cbv. intuition discriminate. Qed.
Lemma REQ5_comma_free : comma_free REQ5. Proof. cbv. intuition discriminate. Qed.

(* every datagram in the vendor format decodes to exactly its fields; the AirTouch id
   (AT4) / the name (AT5) may itself contain commas *)
Theorem decode4_exact host serial aid :
  comma_free host -> comma_free serial ->
  utf8_valid host = true -> utf8_valid serial = true -> utf8_valid aid = true ->
  decode4 (dgram4 host serial aid) = DResp4 host serial aid.
Proof.
  intros Hh Hs Uh Us Ua. unfold decode4, dgram4.
  rewrite (bytes_eqb_comma _ _ _ REQ4_comma_free), contains_id. cbn [negb splitn].
  rewrite (break_comma_app host _ Hh), (break_comma_app serial _ Hs),
    (break_comma_app ID4 _ ID4_comma_free).
  rewrite bytes_eqb_refl, Ua, Us, Uh. reflexivity.
Qed.

Theorem decode5_exact host serial aid name :
  comma_free host -> comma_free serial -> comma_free aid ->
  utf8_valid host = true -> utf8_valid serial = true -> utf8_valid aid = true -> utf8_valid name = true ->
  decode5 (dgram5 host serial aid name) = DResp5 host serial aid name.
Proof.
  intros Hh Hs Hi Uh Us Ua Un. unfold decode5, dgram5.
  rewrite (bytes_eqb_comma _ _ _ REQ5_comma_free), contains_id. cbn [negb splitn].
  rewrite (break_comma_app host _ Hh), (break_comma_app serial _ Hs),
    (break_comma_app ID5 _ ID5_comma_free), (break_comma_app aid _ Hi).
  rewrite bytes_eqb_refl, Ua, Un, Us, Uh. reflexivity.
Qed.

(* ... and only those: an entry is produced only by a datagram of that form *)
Theorem decode4_only d host serial aid :
  decode4 d = DResp4 host serial aid ->
  d = dgram4 host serial aid /\ comma_free host /\ comma_free serial /\
  utf8_valid host = true /\ utf8_valid serial = true /\ utf8_valid aid = true.
Proof.
  unfold decode4. destruct (bytes_eqb d REQ4); [discriminate|].
  destruct (negb _); [discriminate|]. cbn [splitn].
  destruct (break_comma d) as [p1 [r1|]] eqn:E1; [apply break_comma_inv in E1 as [F1 ->]|discriminate].
  destruct (break_comma r1) as [p2 [r2|]] eqn:E2; [apply break_comma_inv in E2 as [F2 ->]|discriminate].
  destruct (break_comma r2) as [p3 [r3|]] eqn:E3; [apply break_comma_inv in E3 as [F3 ->]|discriminate].
  destruct (bytes_eqb p3 ID4) eqn:Eid; [apply bytes_eqb_eq in Eid as ->|discriminate].
  destruct (utf8_valid r3 && utf8_valid p2 && utf8_valid p1) eqn:Eu; [|discriminate].
  intros [= <- <- <-]. apply andb_prop in Eu as [[U3 U2]%andb_prop U1]. repeat split; assumption.
Qed.

Theorem decode5_only d host serial aid name :
  decode5 d = DResp5 host serial aid name ->
  d = dgram5 host serial aid name /\ comma_free host /\ comma_free serial /\ comma_free aid /\
  utf8_valid host = true /\ utf8_valid serial = true /\ utf8_valid aid = true /\ utf8_valid name = true.
Proof.
  unfold decode5. destruct (bytes_eqb d REQ5); [discriminate|].
  destruct (negb _); [discriminate|]. cbn [splitn].
  destruct (break_comma d) as [p1 [r1|]] eqn:E1; [apply break_comma_inv in E1 as [F1 ->]|discriminate].
  destruct (break_comma r1) as [p2 [r2|]] eqn:E2; [apply break_comma_inv in E2 as [F2 ->]|discriminate].
  destruct (break_comma r2) as [p3 [r3|]] eqn:E3; [apply break_comma_inv in E3 as [F3 ->]|discriminate].
  destruct (break_comma r3) as [p4 [r4|]] eqn:E4; [apply break_comma_inv in E4 as [F4 ->]|discriminate].
  destruct (bytes_eqb p3 ID5) eqn:Eid; [apply bytes_eqb_eq in Eid as ->|discriminate].
  destruct (utf8_valid p4 && utf8_valid r4 && utf8_valid p2 && utf8_valid p1) eqn:Eu; [|discriminate].
  intros [= <- <- <- <-]. apply andb_prop in Eu as [[[U4 U5]%andb_prop U2]%andb_prop U1]. repeat split; assumption.
Qed.

(* the echo of the request is recognised and is not a response *)
Lemma decode_request : decode4 REQ4 = DRequest /\ decode5 REQ5 = DRequest.
Proof. split; reflexivity. Qed.

Open Scope Z_scope.

(* the request schedule, written out: at most three requests, at 0, 0.5 s and 1 s; the
   search stops after the first interval in which the response set is non-empty and
   returns half a second after its last request *)
Theorem search_schedule arr :
  search arr =
  match collect 0 arr [] with
  | [] => match collect 512 arr [] with
          | [] => ([0; 512; 1024], collect 1024 arr [], 1536)
          | a => ([0; 512], a, 1024)
          end
  | a => ([0], a, 512)
  end.
Proof.
  unfold search. cbn [search_from]. destruct (collect 0 arr []) eqn:E0; [|reflexivity].
  change (0 + interval) with 512. destruct (collect 512 arr []) eqn:E1; [|reflexivity].
  change (512 + interval) with 1024. destruct (collect 1024 arr []) eqn:E2; reflexivity.
Qed.

(* equality of entries is equality of all their fields: duplicates collapse, datagrams
   that differ in any field are kept apart *)
Lemma dres_eqb_eq a b : is_resp a = true -> (dres_eqb a b = true <-> a = b).
Proof.
  intros Ha. destruct a; try discriminate; destruct b; cbn; try (split; discriminate);
    rewrite !andb_true_iff, !bytes_eqb_eq; split.
  - intros [[-> ->] ->]. reflexivity.
  - intros [= -> -> ->]. auto.
  - intros [[[-> ->] ->] ->]. reflexivity.
  - intros [= -> -> -> ->]. auto.
Qed.

Inductive distinct : list dres -> Prop :=
| distinct_nil : distinct []
| distinct_cons x l : existsb (dres_eqb x) l = false -> distinct l -> distinct (x :: l).

Lemma dres_eqb_sym a b : dres_eqb a b = dres_eqb b a.
Proof.
  destruct a, b; cbn; try reflexivity; repeat (f_equal; try apply bytes_eqb_sym).
Qed.

Lemma distinct_snoc l r : distinct l -> existsb (dres_eqb r) l = false -> distinct (l ++ [r]).
Proof.
  induction 1 as [|x l Hx Hd IH]; intros Hr; cbn.
  - constructor; [reflexivity|constructor].
  - cbn in Hr. apply orb_false_iff in Hr as [Hrx Hrl]. constructor; [|now apply IH].
    rewrite existsb_app, Hx. cbn. rewrite dres_eqb_sym, Hrx. reflexivity.
Qed.

Lemma add_resp_distinct acc r :
  distinct acc -> Forall (fun x => is_resp x = true) acc ->
  distinct (add_resp acc r) /\ Forall (fun x => is_resp x = true) (add_resp acc r).
Proof.
  intros Hd Hf. unfold add_resp. destruct (is_resp r) eqn:Er; [|auto].
  destruct (existsb (dres_eqb r) acc) eqn:Ee; [auto|]. split.
  - now apply distinct_snoc.
  - apply Forall_app. split; [exact Hf|constructor; [exact Er|constructor]].
Qed.

Lemma collect_distinct t arr acc :
  distinct acc -> Forall (fun x => is_resp x = true) acc ->
  distinct (collect t arr acc) /\ Forall (fun x => is_resp x = true) (collect t arr acc).
Proof.
  unfold collect. generalize (map snd (filter (in_window t) arr)). intros l. revert acc.
  induction l as [|r l IH]; intros acc Hd Hf; cbn; [auto|].
  destruct (add_resp_distinct acc r Hd Hf) as [Hd' Hf']. now apply IH.
Qed.

(* the result never holds two equal entries and holds only decoded responses *)
Theorem search_distinct arr :
  let '(_, res, _) := search arr in distinct res /\ Forall (fun x => is_resp x = true) res.
Proof.
  rewrite search_schedule.
  pose proof (collect_distinct 0 arr [] distinct_nil (Forall_nil _)) as H0.
  pose proof (collect_distinct 512 arr [] distinct_nil (Forall_nil _)) as H1.
  pose proof (collect_distinct 1024 arr [] distinct_nil (Forall_nil _)) as H2.
  destruct (collect 0 arr []); [|exact H0]. destruct (collect 512 arr []); [exact H2|exact H1].
Qed.

(* datagrams that are not responses leave the response set unchanged *)
Lemma add_non_resp acc r : is_resp r = false -> add_resp acc r = acc.
Proof. intros H. unfold add_resp. now rewrite H. Qed.
