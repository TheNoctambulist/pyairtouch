(* Fields.v — two vocabularies for the same bits: the vendor documents' (Spec4.bits / bitv,
   positions 8..1, division and remainder) and the Python code's (masks, shifts, Res.bit; base/Bits.v).
   Where a lemma is used by rewriting, the masks, shifts and positions are arguments and
   their relation a side equation closed by computation: rewrite matches 0xC0 or 6 as
   written, not up to evaluation. *)
From Coq Require Import ZArith List Lia.
From PV Require Import base.Res base.Bits spec.Spec4.
Import ListNotations.
Open Scope N_scope.

Lemma bits_land b hi lo : bits b hi lo = N.land (N.shiftr b (lo - 1)) (N.ones (hi - lo + 1)).
Proof. unfold bits. now rewrite N.shiftr_div_pow2, N.land_ones. Qed.

Lemma bits_lt b hi lo : bits b hi lo < 2 ^ (hi - lo + 1).
Proof. apply N.mod_lt. now apply N.pow_nonzero. Qed.

Lemma bits_small b hi : 1 <= hi -> b < 2 ^ hi -> bits b hi 1 = b.
Proof. intros H1 H. unfold bits. rewrite N.div_1_r, N.sub_add by exact H1. now apply N.mod_small. Qed.

(* "(b & m) >> k" is "Bit hi-lo" *)
Lemma field_bits b m k hi lo : k = lo - 1 -> N.shiftr m k = N.ones (hi - lo + 1) ->
  N.shiftr (N.land b m) k = bits b hi lo.
Proof. intros -> E. now rewrite N.shiftr_land, E, bits_land. Qed.

Lemma low_bits b m hi : m = N.ones (hi - 1 + 1) -> N.land b m = bits b hi 1.
Proof. intros ->. now rewrite bits_land, N.shiftr_0_r. Qed.

Lemma bitv_testbit b k : bitv b k = N.testbit b (k - 1).
Proof.
  unfold bitv, bits. rewrite N.sub_diag, N.add_0_l, N.pow_1_r, <- N.testbit_spec'.
  now destruct (N.testbit b (k - 1)).
Qed.

(* the code's flag lists [bit b 0; bit b 1; ...] against the document's "Bit 1, Bit 2, ..." *)
Lemma bits_list b l : map (bit b) l = map (bitv b) (map N.succ l).
Proof.
  rewrite map_map. apply map_ext. intros k. now rewrite bit_testbit, bitv_testbit, N.sub_1_r, N.pred_succ.
Qed.

Lemma bits_1 b k : bits b k k = if bitv b k then 1 else 0.
Proof.
  unfold bitv. pose proof (bits_lt b k k) as H. rewrite N.sub_diag in H.
  destruct (N.eqb_spec (bits b k k) 1) as [E|E]; [exact E|]. change (2 ^ (0 + 1)) with 2 in H. lia.
Qed.

(* a one-bit field under a decoder of a two-valued enum *)
Lemma flag_bit {A} (f : N -> option A) x y b k :
  f 0 = Some x -> f 1 = Some y -> f (bits b k k) = Some (if bitv b k then y else x).
Proof. intros F0 F1. rewrite bits_1. now destruct (bitv b k). Qed.

(* a byte the code packs from two fields, as the document reads it *)
Lemma packed_bits ml mh k top lop lo hi :
  ml = N.ones k -> mh = N.shiftl (N.ones (top - k)) k -> lop = k + 1 -> 1 <= k < top ->
  let b := N.land (N.shiftl hi k) mh + N.land lo ml in
  b < 2 ^ top /\ bits b k 1 = lo mod 2 ^ k /\ bits b top lop = hi mod 2 ^ (top - k).
Proof.
  intros -> -> -> [H1 Hk]. cbn zeta.
  destruct (cat_masked k (top - k) _ _ hi lo eq_refl eq_refl) as (B & L & H). cbn zeta in B, L, H.
  replace (k + (top - k)) with top in B by lia. rewrite <- L, <- H. repeat split.
  - exact B.
  - symmetry. apply low_bits. f_equal. lia.
  - symmetry. apply field_bits; [lia|].
    rewrite N.shiftr_shiftl_l, N.sub_diag, N.shiftl_0_r by lia. f_equal. lia.
Qed.
