(* Command5.v — C04 for AirTouch 5: the bytes of every zone / AC control record, read as
   the vendor document says, ask for exactly what the record holds and keep the rest. *)
From Coq Require Import ZArith List Lia.
From PV Require Import base.Res at4.Msg4 at4.Codec4 at4.Codec4Proofs at5.Msg5 at5.Codec5 at5.Codec5Proofs
  spec.Spec4 spec.Spec5 spec.Fields spec.Command4.
Import ListNotations.
Open Scope N_scope.

(* --------------------------------------------------- 4.a.i zone control (0x20) *)
Definition mean_zpower (p : zpower_ctl) : change zone_power :=
  match p with ZP_Unchanged => Keep | ZP_Toggle => Toggle | ZP_Off => SetTo ZOff | ZP_On => SetTo ZOn | ZP_Turbo => SetTo ZTurbo end.
Definition mean_zsetting (s : zsetting) : change zone_value :=
  match s with ZS_None => Keep | ZS_Dec => Decrease | ZS_Inc => Increase
             | ZS_Damper p => SetTo (Percent p) | ZS_SetPoint d => SetTo (SetPointDeg d) end.
(* the AirTouch 5 client never asks for a control-type change *)
Definition mean_zone_ctrl (z : zone_ctrl) : szone_ctrl :=
  mkSZC (zc_zone z) (mean_zsetting (zc_setting z)) Keep (mean_zpower (zc_power z)).

(* 64: the document reads the zone number from bits 6-1 of byte 1, the encoder packs zone_number as the whole byte
   (struct format B): the two agree below 2^6 *)
Definition dom_zone_ctrl64 (z : zone_ctrl) : bool := dom_zone_ctrl z && (zc_zone z <? 64).

Theorem zone_ctrl_means z : dom_zone_ctrl64 z = true ->
  exists b1 b2 b3, enc_zone_ctrl1 z = Some [b1; b2; b3; 0] /\ read_zone_ctrl b1 b2 b3 = mean_zone_ctrl z.
Proof.
  destruct z as [n pw st]. unfold dom_zone_ctrl64, dom_zone_ctrl. cbn [zc_zone zc_setting]. intros H.
  apply andb_prop in H as [H H64]. apply andb_prop in H as [Hn Hs]. apply N.ltb_lt in Hn, H64.
  pose proof (bits_small n 6 ltac:(easy) H64) as Bn.
  unfold enc_zone_ctrl1, read_zone_ctrl, mean_zone_ctrl. cbn [zc_zone zc_power zc_setting].
  (* a damper percentage or the byte p of a set-point is the only value byte that is not 0xFF *)
  destruct st as [| | |p|d]; cbn [zc_setting_code].
  4: apply N.ltb_lt in Hs.
  5: apply andb_prop in Hs as [Hs1 Hs2]; apply Z.leb_le in Hs1, Hs2;
     destruct (set_point_rt d ltac:(lia)) as [p [-> [Hs <-]]].
  all: destruct pw; cbn -[pack_B bits]; rewrite (pack_B_ok n Hn), ?(pack_B_ok p Hs); cbn [obind app];
       eexists; eexists; eexists; (split; [reflexivity|]); rewrite Bn; reflexivity.
Qed.

(* --------------------------------------------------- 4.a.iii AC control (0x22) *)
Definition mean_a5power (p : a5power_ctl) : change onoff :=
  match p with A5P_Unchanged => Keep | A5P_Toggle => Toggle | A5P_Off => SetTo POff | A5P_On => SetTo POn
             | A5P_Away => SetTo PAway | A5P_Sleep => SetTo PSleep end.
Definition mean_a5fan (f : a5fan_ctl) : change fan5 :=
  match f with A5F_Auto => SetTo (F5 AFS_Auto) | A5F_Quiet => SetTo (F5 AFS_Quiet) | A5F_Low => SetTo (F5 AFS_Low)
             | A5F_Medium => SetTo (F5 AFS_Medium) | A5F_High => SetTo (F5 AFS_High) | A5F_Powerful => SetTo (F5 AFS_Powerful)
             | A5F_Turbo => SetTo (F5 AFS_Turbo) | A5F_IntelligentAuto => SetTo F5IntelligentAuto | A5F_Unchanged => Keep end.
Definition mean_a5sp (s : option Z) : change Z := match s with Some d => SetTo d | None => Keep end.
Definition mean_ac5_ctrl (c : ac5_ctrl) : sac5_ctrl :=
  mkSAC5 (a5c_number c) (mean_a5power (a5c_power c)) (mean_amode (a5c_mode c)) (mean_a5fan (a5c_fan c)) (mean_a5sp (a5c_sp c)).

Theorem ac5_ctrl_means c : dom_ac5_ctrl c = true ->
  exists b1 b2 b3 b4, enc_ac5_ctrl1 c = Some [b1; b2; b3; b4] /\ read_ac5_ctrl b1 b2 b3 b4 = mean_ac5_ctrl c.
Proof.
  unfold dom_ac5_ctrl, enc_ac5_ctrl1, a5c_b1, a5c_b2, read_ac5_ctrl, mean_ac5_ctrl. intros H.
  apply andb_prop in H as [Hn Hsp]. apply N.ltb_lt in Hn.
  (* a5c_b1 adds the low field first, packed_bits is stated with the high field first *)
  rewrite (N.add_comm (N.land (a5c_number c) 0x0F)).
  destruct (packed_bits 0x0F 0xF0 4 8 5 (a5c_number c) (a5power_ctl_code (a5c_power c))) as [L1 [N1 P1]]; [easy..|].
  destruct (packed_bits 0x0F 0xF0 4 8 5 (a5fan_ctl_code (a5c_fan c)) (amode_ctl_code (a5c_mode c))) as [L2 [F2 M2]]; [easy..|].
  assert (Es : exists ct v, a5c_spc c = Some (ct, v) /\ ct < 256 /\ v < 256 /\
               (if ct =? 64 then SetTo (Z.of_N v + 100)%Z else if ct =? 0 then Keep else NotDefined) = mean_a5sp (a5c_sp c)).
  { unfold a5c_spc. destruct (a5c_sp c) as [d|].
    - apply andb_prop in Hsp as [H1 H2]. apply Z.leb_le in H1, H2. assert (d =? 0 = false)%Z as -> by (apply Z.eqb_neq; lia).
      destruct (set_point_rt d ltac:(lia)) as [v [-> [Hv <-]]]. now exists 64, v.
    - (* keep: command 0, value byte 0xFF *) now exists 0, 255. }
  destruct Es as [ct [v [-> [Hct [Hv Ds]]]]]. cbn [obind fst snd].
  rewrite (pack_B_ok _ L1), (pack_B_ok _ L2), (pack_B_ok _ Hct), (pack_B_ok _ Hv). cbn [obind app].
  eexists. eexists. eexists. eexists. split; [reflexivity|].
  rewrite N1, P1, F2, M2, Ds, (N.mod_small (a5c_number c)) by exact Hn. f_equal.
  - now destruct (a5c_power c).
  - now destruct (a5c_mode c).
  - now destruct (a5c_fan c).
Qed.
