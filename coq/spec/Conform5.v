(* Conform5.v — C05 for AirTouch 5: the decoders of Codec5.v read every status payload
   exactly as Spec5.v (the vendor document) says, or reject it; announced record strides
   are honoured. *)
From Coq Require Import ZArith List Lia.
From PV Require Import base.Res base.Utf8 base.ListX base.Bits at4.Msg4 at4.Codec4 at5.Msg5 at5.Codec5 spec.Spec4 spec.Spec5 spec.Fields spec.Conform4.
Import ListNotations.
Open Scope N_scope.

(* the enum tables of the document against those of the code *)
Lemma zpower_table c : c < 4 ->
  match c with 0 => Val ZPS_Off | 1 => Val ZPS_On | 3 => Val ZPS_Turbo | _ => Undefined end = reading_of Undefined (zpower_of c).
Proof. revert c. by_cases 4%nat. Qed.
Lemma a5power_table c : c < 16 ->
  match c with
  | 0 => Val A5S_Off | 1 => Val A5S_On | 2 => Val A5S_OffAway | 3 => Val A5S_OnAway | 5 => Val A5S_Sleep
  | _ => NotAvailable end = reading_of NotAvailable (a5power_of c).
Proof. revert c. by_cases 16%nat. Qed.
Lemma a5fan_table c : c < 16 ->
  match c with
  | 0 => Val A5FS_Auto | 1 => Val A5FS_Quiet | 2 => Val A5FS_Low | 3 => Val A5FS_Medium | 4 => Val A5FS_High
  | 5 => Val A5FS_Powerful | 6 => Val A5FS_Turbo
  | 9 => Val A5FS_IAQuiet | 10 => Val A5FS_IALow | 11 => Val A5FS_IAMedium | 12 => Val A5FS_IAHigh
  | 13 => Val A5FS_IAPowerful | 14 => Val A5FS_IATurbo
  | _ => NotAvailable end = reading_of NotAvailable (a5fan_of c).
Proof. revert c. by_cases 16%nat. Qed.

(* ------------------------ the 11-bit temperature of bytes 5 and 6, as both sides read it *)
Lemma temp11_be b5 b6 : b6 < 256 -> N.land (b5 * 256 + b6) 0x07FF = bits b5 3 1 * 256 + b6.
Proof.
  intros H. change 0x07FF with (N.ones 11). rewrite N.land_ones. unfold bits.
  change (2 ^ (1 - 1)) with 1. rewrite N.div_1_r. change (2 ^ (3 - 1 + 1)) with 8. change (2 ^ 11) with 2048.
  pose proof (N.div_mod b5 8 ltac:(easy)). pose proof (N.mod_lt b5 8 ltac:(easy)).
  symmetry. apply N.mod_unique with (q := b5 / 8); lia.
Qed.

Lemma read_temp5_dec b5 b6 : b6 < 256 ->
  let raw := N.land (b5 * 256 + b6) 0x07FF in
  read_temp5 b5 b6 = if (1500 <? dec_temp5 raw)%Z then NotAvailable else Val (dec_temp5 raw).
Proof.
  intros H. cbn zeta. rewrite (temp11_be b5 b6 H). unfold read_temp5, dec_temp5.
  destruct (N.leb_spec (bits b5 3 1 * 256 + b6) 2000), (Z.ltb_spec 1500 (Z.of_N (bits b5 3 1 * 256 + b6) - 500)); (reflexivity || lia).
Qed.

(* ------------------------------------------------- 4.a.ii zone status (0x21) *)
Definition zone_status_agrees (z : zone_status) (s : szone) : Prop :=
  zs_zone z = sz_index s /\ sz_power s = Val (zs_power z) /\ zs_method z = sz_method s /\ zs_damper z = sz_percent s /\
  match zs_setpoint z with Some d => sz_setpoint s = Val d | None => sz_setpoint s = NotAvailable end /\
  zs_sensor z = sz_sensor s /\ zs_spill z = sz_spill s /\
  zs_battery z = (if sz_low_battery s then Bat_Low else Bat_Normal) /\
  (* the temperature is reported for zones with a sensor only *)
  match zs_temp z with
  | Some d => sz_sensor s = true /\ sz_temp s = Val d
  | None => sz_sensor s = false \/ sz_temp s = NotAvailable
  end.

Theorem conf_zone_status b1 b2 b3 b4 b5 b6 b7 b8 : b6 < 256 ->
  let s := read_zone_status b1 b2 b3 b4 b5 b6 b7 in
  match dec_zone_status1 [b1; b2; b3; b4; b5; b6; b7; b8] with
  | Some z => zone_status_agrees z s
  | None => sz_power s = Undefined
  end.
Proof.
  intros H6. cbn zeta. unfold dec_zone_status1, read_zone_status, zs_temp_of, zs_sp_of.
  rewrite (field_bits b1 0xC0 6 8 7), (low_bits b1 0x3F 6), (field_bits b2 0x80 7 8 8), (low_bits b2 0x7F 7),
          (low_bits b7 0x01 1) by reflexivity.
  erewrite (flag_bit zmethod_of), (flag_bit battery_of) by reflexivity.
  rewrite (zpower_table _ (bits_lt b1 8 7)), (read_temp5_dec b5 b6 H6), !bit_testbit, !bitv_testbit.
  destruct (zpower_of (bits b1 8 7)) as [p|]; [|reflexivity].
  unfold zone_status_agrees. cbn. repeat (split; [reflexivity|]). split; [now destruct (b3 =? 255)|].
  repeat (split; [reflexivity|]).
  destruct (N.testbit b4 7); [|left; reflexivity]. cbn [negb orb].
  destruct (1500 <? dec_temp5 (N.land (b5 * 256 + b6) 2047))%Z; [right|split]; reflexivity.
Qed.

(* --------------------------------------------------- 4.a.iv AC status (0x23) *)
Definition ac5_status_agrees (a : ac5_status) (s : sac5) (b3 b5 b6 : N) : Prop :=
  a5s_number a = s5_index s /\ s5_power s = Val (a5s_power a) /\ s5_mode s = Val (a5s_mode a) /\ s5_fan s = Val (a5s_fan a) /\
  a5s_turbo a = s5_turbo s /\ a5s_bypass a = s5_bypass s /\ a5s_spill a = s5_spill s /\ a5s_timer a = s5_timer s /\
  a5s_error a = s5_error s /\
  (b3 <= 250 -> s5_setpoint s = Val (a5s_setpoint a)) /\
  (bits b5 3 1 * 256 + b6 <= 2000 -> s5_temp s = Val (a5s_temp a)).

(* PARTIAL: the set-point and temperature clauses exclude the documented not-available
   ranges (see conf_ac5_status_refuted) *)
Theorem conf_ac5_status_partial b1 b2 b3 b4 b5 b6 b7 b8 tail : b6 < 256 ->
  let s := read_ac5_status b1 b2 b3 b4 b5 b6 b7 b8 in
  match dec_ac5_status1 ([b1; b2; b3; b4; b5; b6; b7; b8] ++ tail) with
  | Some a => ac5_status_agrees a s b3 b5 b6
  | None => s5_power s = NotAvailable \/ s5_mode s = NotAvailable \/ s5_fan s = NotAvailable
  end.
Proof.
  intros H6. cbn zeta. cbn [app]. unfold dec_ac5_status1, read_ac5_status.
  rewrite (field_bits b1 0xF0 4 8 5), (low_bits b1 0x0F 4), (field_bits b2 0xF0 4 8 5), (low_bits b2 0x0F 4) by reflexivity.
  rewrite (a5power_table _ (bits_lt b1 8 5)), (amode_table _ (bits_lt b2 8 5)), (a5fan_table _ (bits_lt b2 4 1)),
          (temp11_be b5 b6 H6), !bit_testbit, !bitv_testbit.
  destruct (a5power_of (bits b1 8 5)) as [p|]; [|left; reflexivity].
  destruct (amode_of (bits b2 8 5)) as [m|]; [|right; left; reflexivity].
  destruct (a5fan_of (bits b2 4 1)) as [f|]; [|right; right; reflexivity].
  unfold ac5_status_agrees, read_temp5. cbn. repeat (split; [reflexivity|]).
  split; intros Hle; apply N.leb_le in Hle; now rewrite Hle.
Qed.

(* the full statement is false of the code: set-point values 251..255 and temperature
   values 2001..2047 ("Other: Not available") are decoded as numbers (known finding K3;
   the public field types are float) *)
Theorem conf_ac5_status_refuted :
  exists a, dec_ac5_status1 [0x10; 0x12; 0xFF; 0xC0; 0x07; 0xFF; 0; 0] = Some a /\
            s5_setpoint (read_ac5_status 0x10 0x12 0xFF 0xC0 0x07 0xFF 0 0) = NotAvailable /\ a5s_setpoint a = 355%Z /\
            s5_temp (read_ac5_status 0x10 0x12 0xFF 0xC0 0x07 0xFF 0 0) = NotAvailable /\ a5s_temp a = 1547%Z.
Proof. eexists. vm_compute. repeat split; reflexivity. Qed.

(* ------------------------------------------------ announced record strides *)
(* "Each repeat data length ... If the protocol is upgraded, this value may change. Use
   this specific value for data parsing": record i is read at offset i * stride, and what
   is left is the buffer after count * stride bytes (the last clause, for i < count, says
   f (skipn (i * stride) b) = nth_error l i; it has the shape C05_at5_stride states it in) *)
Theorem conf_stride {A} (f : list N -> option A) stride : forall count b l rest,
  dec_repeat count stride f b = Some (l, rest) ->
  length l = count /\ rest = skipn (count * stride) b /\
  forall i, (i < count)%nat -> option_map Some (nth_error l i) = option_map f (Some (skipn (i * stride) b)).
Proof.
  induction count as [|c IH]; intros b l rest H.
  - cbn in H. injection H as <- <-. split; [reflexivity|]. split; [reflexivity|]. intros i Hi; lia.
  - cbn [dec_repeat] in H. destruct (f b) as [x|] eqn:Fx; [|discriminate]. cbn [obind] in H.
    destruct (dec_repeat c stride f (skipn stride b)) as [[l' rest']|] eqn:R; [|discriminate].
    cbn [obind fst snd] in H. injection H as <- <-.
    destruct (IH _ _ _ R) as [Hl [Hr Hi]]. split; [cbn; now rewrite Hl|]. split.
    + rewrite Hr, skipn_skipn'. reflexivity.
    + intros [|i] Hlt; cbn [nth_error option_map].
      * cbn [Nat.mul skipn]. now rewrite Fx.
      * rewrite (Hi i ltac:(lia)). cbn [option_map Nat.mul]. rewrite skipn_skipn'. reflexivity.
Qed.

(* and each record decoder reads the known prefix of its record only: bytes the console
   appends to a record (a longer stride) do not change the reading.  That is Codec5Proofs.dec_zone_status1_ext,
   dec_timer5_ext and their like, which the round trip needs as well. *)

(* a stride of 1 to 7 bytes, shorter than the known layout, is rejected: stated for the zone and the AC status *)
Theorem conf_short_stride id nrl rl rc b :
  (id = 0x21 \/ id = 0x23) -> (0 < rl < 8)%nat -> dec_c0_body id nrl rl rc b = None.
Proof.
  intros [-> | ->] [H0 H8]; unfold dec_c0_body; cbn [N.eqb Pos.eqb];
    destruct rl as [|rl]; try lia; cbn [Nat.eqb andb];
    (assert (Nat.ltb (S rl) 8 = true) as -> by (apply Nat.ltb_lt; lia)); reflexivity.
Qed.

(* --------------------------------------------- 4.b.i AC ability (0xFF 0x11) *)
Definition ability5_agrees (a : ability5) (s : sability5) : Prop :=
  ab5_number a = s5b_index s /\ ab5_name a = s5b_name s /\ ab5_start a = s5b_start s /\ ab5_count a = s5b_count s /\
  ab5_modes a = s5b_modes s /\ ab5_fans a = s5b_fans s /\
  ab5_min_cool a = s5b_min_cool s /\ ab5_max_cool a = s5b_max_cool s /\
  ab5_min_heat a = s5b_min_heat s /\ ab5_max_heat a = s5b_max_heat s.

(* both sides read the record by position, whatever its length *)
Theorem conf_ability5 r :
  match dec_ability5 r with
  | Some a => ability5_agrees a (read_ability5 r)
  | None => utf8_valid (s5b_name (read_ability5 r)) = false
  end.
Proof.
  unfold dec_ability5, read_ability5, byte. cbn [s5b_name].
  rewrite <- cstring_is_text_before_zero. destruct (utf8_valid (cstring _)); [|reflexivity].
  repeat split; [apply (bits_list _ (below 5))|apply (bits_list _ (below 8))].
Qed.

(* ------------------------------------------- 4.b.iii zone name (0xFF 0x13) *)
(* the decoder yields the entries the document describes, in order; it rejects where the
   document's reading fails or holds a name that is not UTF-8 *)
Lemma dec_names5_reads : forall fuel b,
  dec_names5 fuel b =
  l <- read_zone_names fuel b ;; if existsb (fun e => negb (utf8_valid (snd e))) l then None else Some l.
Proof.
  induction fuel as [|f IH]; intros [|z [|nl r]]; try reflexivity.
  cbn [dec_names5 read_zone_names]. rewrite IH.
  destruct (Nat.ltb (length r) (N.to_nat nl)); [reflexivity|].
  destruct (read_zone_names f (skipn (N.to_nat nl) r)) as [rest|]; cbn [obind existsb snd].
  - destruct (utf8_valid (firstn (N.to_nat nl) r)); cbn [negb orb]; [|reflexivity].
    now destruct (existsb _ rest).
  - now destruct (utf8_valid _).
Qed.

Theorem conf_zone_names fuel b l : dec_names5 fuel b = Some l -> read_zone_names fuel b = Some l.
Proof.
  rewrite dec_names5_reads. destruct (read_zone_names fuel b) as [l'|]; [|discriminate]. cbn [obind].
  destruct (existsb _ l'); [discriminate|exact (fun H => H)].
Qed.

Theorem conf_zone_names_reject fuel b : dec_names5 fuel b = None ->
  read_zone_names fuel b = None \/
  exists l, read_zone_names fuel b = Some l /\ existsb (fun e => negb (utf8_valid (snd e))) l = true.
Proof.
  rewrite dec_names5_reads. destruct (read_zone_names fuel b) as [l|]; [|now left]. cbn [obind].
  destruct (existsb _ l) eqn:X; [|discriminate]. right. now exists l.
Qed.

(* ---------------- 4.b.ii error information and 4.b.iv console version (as AirTouch 4,
   with "," between the versions) *)
Theorem conf_error_info5 b : (2 <= length b)%nat ->
  match dec_sub5 0xFF10 (length b) b with
  | Some (S5_ErrMsg ac info, rest) =>
    (ac, info) = read_error_info b /\ rest = skipn (2 + N.to_nat (byte b 1)) b
  | Some _ => False
  | None => exists e, snd (read_error_info b) = Some e /\ utf8_valid e = false
  end.
Proof.
  intros H2. destruct b as [|ac [|el r]]; try (cbn in H2; lia).
  rewrite read_error_info_cons. unfold dec_sub5, byte. cbn [N.eqb Pos.eqb length Nat.eqb nth skipn Nat.add snd].
  destruct (el =? 0); [split; reflexivity|].
  destruct (utf8_valid (firstn (N.to_nat el) r)) eqn:Eu; [split; reflexivity|]. now eexists.
Qed.

Theorem conf_version5 b : (2 <= length b)%nat ->
  match dec_sub5 0xFF30 (length b) b with
  | Some (S5_Version up vs, rest) => (up, vs) = read_version VERSION_SEP5 b
  | Some _ => False
  | None => utf8_valid (firstn (N.to_nat (byte b 1)) (skipn 2 b)) = false
  end.
Proof.
  intros H2. destruct b as [|up [|vl r]]; try (cbn in H2; lia).
  unfold dec_sub5. cbn [N.eqb Pos.eqb length Nat.eqb]. unfold read_version, byte. cbn [nth skipn].
  destruct (utf8_valid (firstn (N.to_nat vl) r)); [|reflexivity].
  unfold split_sep. now rewrite split_sep_aux_is_split_on.
Qed.
