(* Conform4.v — C05 for AirTouch 4: the decoders of Codec4.v read every status payload
   exactly as Spec4.v (the vendor document) says, or reject it. *)
From Coq Require Import ZArith List Lia.
From PV Require Import base.Res base.Utf8 base.ListX base.Bits at4.Msg4 at4.Codec4 at4.Codec4Proofs spec.Spec4 spec.Fields.
Import ListNotations.
Open Scope N_scope.

(* a decoder's option read as the document's reading: [miss] is what the document calls
   the codes the decoder rejects *)
Definition reading_of {A} (miss : reading A) (o : option A) : reading A :=
  match o with Some a => Val a | None => miss end.

Lemma cstring_is_text_before_zero l : cstring l = text_before_zero l.
Proof. induction l as [|c l IH]; [reflexivity|]. cbn. destruct c; cbn; [reflexivity|now rewrite IH]. Qed.

(* the enum tables of the document against those of the code *)
Lemma gpower_table c : c < 4 ->
  match c with 0 => Val GPS_Off | 1 => Val GPS_On | 3 => Val GPS_Turbo | _ => Undefined end = reading_of Undefined (gpower_of c).
Proof. revert c. by_cases 4%nat. Qed.
Lemma apower_table c : c < 4 ->
  match c with 0 => Val APS_Off | 1 => Val APS_On | _ => NotAvailable end = reading_of NotAvailable (apower_of c).
Proof. revert c. by_cases 4%nat. Qed.
Lemma amode_table c : c < 16 ->
  match c with
  | 0 => Val AMS_Auto | 1 => Val AMS_Heat | 2 => Val AMS_Dry | 3 => Val AMS_Fan | 4 => Val AMS_Cool
  | 8 => Val AMS_AutoHeat | 9 => Val AMS_AutoCool | _ => NotAvailable end = reading_of NotAvailable (amode_of c).
Proof. revert c. by_cases 16%nat. Qed.
Lemma afan_table c : c < 16 ->
  match c with
  | 0 => Val AFS_Auto | 1 => Val AFS_Quiet | 2 => Val AFS_Low | 3 => Val AFS_Medium | 4 => Val AFS_High
  | 5 => Val AFS_Powerful | 6 => Val AFS_Turbo | _ => NotAvailable end = reading_of NotAvailable (afan_of c).
Proof. revert c. by_cases 16%nat. Qed.

(* ------------------------------------- the 16-bit temperature word of bytes 5 and 6 *)
Lemma dec_temp_be b5 b6 : b5 < 256 -> b6 < 256 ->
  dec_temp (b5 * 256 + b6) = (Z.of_N (b5 * 8 + bits b6 8 6) - 500)%Z.
Proof.
  intros H5 H6. unfold dec_temp, bits. do 2 f_equal.
  rewrite N.shiftr_land. change (N.shiftr 0xFFE0 5) with (N.ones 11). rewrite N.land_ones, N.shiftr_div_pow2.
  change (2 ^ 5) with 32. change (2 ^ (6 - 1)) with 32.
  replace (b5 * 256 + b6) with (b6 + b5 * 8 * 32) by lia. rewrite N.div_add by easy.
  assert (b6 / 32 < 8) by (apply N.div_lt_upper_bound; [easy|exact H6]).
  rewrite !N.mod_small; cbn; lia.
Qed.

Lemma temp_sentinel b5 b6 : b5 < 256 -> b6 < 256 -> (N.land (b5 * 256 + b6) 0xFF00 =? 0xFF00) = (b5 =? 0xFF).
Proof.
  intros H5 H6. rewrite N.add_comm. change 0xFF00 with (0xFF * 2 ^ 8) at 1. change 256 with (2 ^ 8).
  rewrite (land_high b6 b5 0xFF 8 H6). change 0xFF with (N.ones 8) at 1. rewrite N.land_ones, N.mod_small by exact H5.
  destruct (N.eqb_spec b5 0xFF) as [->|E]; [reflexivity|]. apply N.eqb_neq. cbn. lia.
Qed.

(* ------------------------------------------------ 4.b group status (0x2B) *)
Definition group_status_agrees (g : group_status) (s : sgroup) : Prop :=
  gs_group g = sg_number s /\ sg_power s = Val (gs_power g) /\ gs_method g = sg_method s /\
  gs_damper g = sg_percent s /\ gs_battery g = (if sg_low_battery s then Bat_Low else Bat_Normal) /\
  gs_turbo g = sg_turbo_support s /\ gs_sensor g = sg_sensor s /\ gs_spill g = sg_spill s /\
  (* the set-point and the temperature are reported for groups with a sensor only *)
  gs_setpoint g = (if sg_sensor s then Some (sg_setpoint s) else None) /\
  match gs_temp g with
  | Some d => sg_sensor s = true /\ sg_temp s = Val d
  | None => sg_sensor s = false \/ sg_temp s = NotAvailable
  end.

Theorem conf_group_status b1 b2 b3 b4 b5 b6 : b5 < 256 -> b6 < 256 ->
  let s := read_group_status b1 b2 b3 b4 b5 b6 in
  match dec_group_status1 [b1; b2; b3; b4; b5; b6] with
  | Some g => group_status_agrees g s
  | None => sg_power s = Undefined
  end.
Proof.
  intros H5 H6. cbn zeta. unfold dec_group_status1, read_group_status.
  rewrite (field_bits b1 0xC0 6 8 7), (low_bits b1 0x3F 6), (field_bits b2 0x80 7 8 8), (low_bits b2 0x7F 7),
          (field_bits b3 0x80 7 8 8), (low_bits b3 0x3F 6) by reflexivity.
  erewrite (flag_bit gmethod_of), (flag_bit battery_of) by reflexivity.
  rewrite (gpower_table _ (bits_lt b1 8 7)), dec_temp_mask, (temp_sentinel b5 b6 H5 H6),
          (dec_temp_be b5 b6 H5 H6), !bit_testbit, !bitv_testbit, (N.add_comm (b5 * 256)).
  (* spill: Byte6 Bit5, bit 4 of the word *)
  change 256 with (2 ^ 8). rewrite (testbit_word b6 b5 8 4 H6).
  destruct (gpower_of (bits b1 8 7)) as [p|]; [|reflexivity].
  unfold group_status_agrees, read_temp11. cbn. repeat (split; [reflexivity|]).
  destruct (N.testbit b4 7); [|left; reflexivity]. destruct (b5 =? 255); [right|split]; reflexivity.
Qed.

(* ---------------------------------------------------- 4.d AC status (0x2D) *)
Definition ac_status_agrees (a : ac_status) (s : sac) (b5 : N) : Prop :=
  as_number a = sa_number s /\ sa_power s = Val (as_power a) /\ sa_mode s = Val (as_mode a) /\ sa_fan s = Val (as_fan a) /\
  as_spill a = sa_spill s /\ as_timer a = sa_timer s /\ as_setpoint a = sa_setpoint s /\ as_error a = sa_error s /\
  (b5 <> 0xFF -> sa_temp s = Val (as_temp a)).

(* PARTIAL: the temperature clause excludes byte 5 = 0xFF (see conf_ac_status_temp_refuted):
   the decoder reports a number whatever byte 5 is *)
Theorem conf_ac_status_partial b1 b2 b3 b4 b5 b6 b7 b8 : b5 < 256 -> b6 < 256 ->
  let s := read_ac_status b1 b2 b3 b4 b5 b6 b7 b8 in
  match dec_ac_status1 [b1; b2; b3; b4; b5; b6; b7; b8] with
  | Some a => ac_status_agrees a s b5
  | None => sa_power s = NotAvailable \/ sa_mode s = NotAvailable \/ sa_fan s = NotAvailable
  end.
Proof.
  intros H5 H6. cbn zeta. unfold dec_ac_status1, read_ac_status.
  rewrite (field_bits b1 0xC0 6 8 7), (low_bits b1 0x3F 6), (field_bits b2 0xF0 4 8 5), (low_bits b2 0x0F 4),
          (low_bits b3 0x3F 6) by reflexivity.
  rewrite (apower_table _ (bits_lt b1 8 7)), (amode_table _ (bits_lt b2 8 5)), (afan_table _ (bits_lt b2 4 1)),
          (dec_temp_be b5 b6 H5 H6), !bit_testbit, !bitv_testbit.
  destruct (apower_of (bits b1 8 7)) as [p|]; [|left; reflexivity].
  destruct (amode_of (bits b2 8 5)) as [m|]; [|right; left; reflexivity].
  destruct (afan_of (bits b2 4 1)) as [f|]; [|right; right; reflexivity].
  unfold ac_status_agrees, read_temp11. cbn. repeat (split; [reflexivity|]).
  intros Hne. apply N.eqb_neq in Hne. now rewrite Hne.
Qed.

(* the full statement is false of the code: the document's "Byte5 = 0xff, Not available"
   is decoded as 154.0 degC (known finding K1; the public field type is float) *)
Theorem conf_ac_status_temp_refuted :
  exists a, dec_ac_status1 [0x40; 0x42; 0x1A; 0; 0xFF; 0; 0; 0] = Some a /\
            sa_temp (read_ac_status 0x40 0x42 0x1A 0 0xFF 0 0 0) = NotAvailable /\ as_temp a = 1540%Z.
Proof. eexists. vm_compute. repeat split; reflexivity. Qed.

(* repeated records: "the data will be repeated with relevant values" — the list decoder
   reads record i from bytes [i*n, (i+1)*n) *)
Theorem conf_repeat {A} (f : list N -> option A) n (rs : list (list N)) l :
  (0 < n)%nat -> Forall (fun r => length r = n) rs ->
  dec_list n f (concat rs) = Some l -> sequence (map f rs) = Some l.
Proof.
  intros Hn F. unfold dec_list. pose proof (concat_length_const n rs F) as L.
  rewrite (chunks_concat n rs (S (length (concat rs))) Hn F ltac:(nia)). cbn [obind]. auto.
Qed.

(* ------------------------------------------- 4.e.i AC ability (0xFF 0x11) *)
(* "Group display option": bit k of byte 27 is group k (Group1 = group number 0), bit k of
   byte 28 is group 8+k; the decoder reads the two bytes as a little-endian bitmap *)
Lemma groups_shown g0 g1 : g0 < 256 -> groups_of_bitmap (g0 + g1 * 256) = shown_groups g0 g1.
Proof.
  intros H. apply filter_ext_in. intros g Hg.
  (* Hg : In g [0; ...; 15], the literal list of shown_groups: the bound is checked member by member *)
  assert (L : g < 16) by (apply N.ltb_lt; revert g Hg; apply forallb_forall; reflexivity).
  change 256 with (2 ^ 8). rewrite bit_testbit, bitv_testbit, N.add_sub, (testbit_word g0 g1 8 g H).
  destruct (N.ltb_spec g 8) as [L8|L8]; f_equal.
  - symmetry. now apply N.mod_small.
  - apply N.mod_unique with (q := 1); lia.
Qed.

Definition ability_agrees (a : ability) (s : sability) : Prop :=
  ab_number a = sb_number s /\ ab_name a = sb_name s /\ ab_start a = sb_start s /\ ab_count a = sb_count s /\
  ab_modes a = sb_modes s /\ ab_fans a = sb_fans s /\ ab_min a = sb_min s /\ ab_max a = sb_max s /\
  ab_groups a = sb_shown s.

(* one ability record in the old format (following length 22, 24 bytes) or the new one
   (following length 24, 26 bytes with the group display bitmap); only the low byte of the
   bitmap has to be a byte.  Fuel 2 is the figure of C05_at4_ability: any fuel >= 1 reads the one record, the
   empty rest being accepted before the fuel is looked at. *)
Theorem conf_ability r : byte r 24 < 256 ->
  (length r = 24%nat /\ byte r 1 <> 24) \/ (length r = 26%nat /\ byte r 1 = 24) ->
  match dec_abilities 2 r with
  | Some [a] => ability_agrees a (read_ability r)
  | Some _ => False
  | None => utf8_valid (sb_name (read_ability r)) = false
  end.
Proof.
  intros Hg Hc.
  (* the 24 bytes both formats share, written out so that the decoder computes on them; r is what follows *)
  do 24 (destruct r as [|? r]; [destruct Hc as [[Hl _]|[Hl _]]; discriminate Hl|]).
  unfold read_ability, byte in *. cbn [length nth] in Hg, Hc.
  cbn [dec_abilities length Nat.ltb Nat.leb firstn skipn nth sb_name].
  rewrite <- cstring_is_text_before_zero.
  destruct Hc as [[Hl Hf]|[Hl Hf]].
  - destruct r; [|discriminate Hl]. apply N.eqb_neq in Hf. rewrite Hf. cbn [obind].
    destruct (utf8_valid (cstring _)); [|reflexivity].
    (* the positional fields agree as they stand; left over: the mode and fan flags *)
    repeat split; [apply (bits_list _ (below 5))|apply (bits_list _ (below 7))].
  - destruct r as [|g0 [|g1 [|]]]; try discriminate Hl. rewrite Hf. cbn [N.eqb Pos.eqb obind nth] in *.
    destruct (utf8_valid (cstring _)); [|reflexivity].
    repeat split; [apply (bits_list _ (below 5))|apply (bits_list _ (below 7))|].
    cbn [ab_groups sb_shown]. f_equal. apply groups_shown, Hg.
Qed.

(* --------------------------------------------- 4.e.iii group name (0xFF 0x12) *)
Theorem conf_group_name r : (1 <= length r <= 9)%nat ->
  match dec_name1 r with
  | Some e => e = read_group_name r
  | None => utf8_valid (snd (read_group_name r)) = false
  end.
Proof.
  intros Hl. destruct r as [|g name]; [cbn in Hl; lia|].
  unfold dec_name1, read_group_name, byte. cbn [nth skipn snd].
  rewrite firstn_all2, <- cstring_is_text_before_zero by (cbn in Hl; lia).
  destruct (utf8_valid (cstring name)); reflexivity.
Qed.

(* ------------------------------------- 4.e.ii AC error information (0xFF 0x10) *)
(* the document tells "no error" by the length byte, as the decoders do *)
Lemma read_error_info_cons ac el r :
  read_error_info (ac :: el :: r) = (ac, if el =? 0 then None else Some (firstn (N.to_nat el) r)).
Proof.
  unfold read_error_info, byte. cbn [nth skipn]. destruct el as [|p]; [reflexivity|]. cbn [N.eqb N.to_nat].
  now destruct (Pos2Nat.is_succ p) as [k ->].
Qed.

(* b: the bytes after the sub-id; their number is dec_sub's len argument *)
Theorem conf_error_info b : (2 <= length b)%nat ->
  match dec_sub 0xFF10 (length b) b with
  | Some (S_ErrMsg ac info, rest) =>
    (ac, info) = read_error_info b /\ rest = skipn (2 + N.to_nat (byte b 1)) b
  | Some _ => False
  | None => exists e, snd (read_error_info b) = Some e /\ utf8_valid e = false
  end.
Proof.
  intros H2. destruct b as [|ac [|el r]]; try (cbn in H2; lia).
  rewrite read_error_info_cons. unfold dec_sub, byte. cbn [N.eqb Pos.eqb length Nat.eqb nth skipn Nat.add snd].
  destruct (el =? 0); [split; reflexivity|].
  destruct (utf8_valid (firstn (N.to_nat el) r)) eqn:Eu; [split; reflexivity|]. now eexists.
Qed.

(* ------------------------------------------- 4.e.iv console version (0xFF 0x30) *)
Lemma split_sep_aux_is_split_on sep l : forall cur,
  split_sep_aux sep cur l = split_on sep (rev cur) l.
Proof.
  induction l as [|c l IH]; intros cur; cbn; [reflexivity|].
  destruct (c =? sep); [now rewrite IH|]. now rewrite IH.
Qed.

Theorem conf_version b : (2 <= length b)%nat ->
  match dec_sub 0xFF30 (length b) b with
  | Some (S_Version up vs, rest) => (up, vs) = read_version VERSION_SEP b
  | Some _ => False
  | None => utf8_valid (firstn (N.to_nat (byte b 1)) (skipn 2 b)) = false
  end.
Proof.
  intros H2. destruct b as [|up [|vl r]]; try (cbn in H2; lia).
  unfold dec_sub. cbn [N.eqb Pos.eqb length Nat.eqb]. unfold read_version, byte. cbn [nth skipn].
  destruct (utf8_valid (firstn (N.to_nat vl) r)); [|reflexivity].
  unfold split_sep. now rewrite split_sep_aux_is_split_on.
Qed.
