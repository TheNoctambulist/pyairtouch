(* Command4.v — C04 for AirTouch 4: the bytes of every control message, read as the vendor
   document says (Spec4.read_group_ctrl / read_ac_ctrl), ask for exactly what the control
   record holds, and keep everything else.  mean_* is what a control record means, in the
   document's vocabulary. *)
From Coq Require Import ZArith List.
From PV Require Import base.Res at4.Msg4 at4.Codec4 at4.Codec4Proofs spec.Spec4 spec.Fields.
Import ListNotations.
Open Scope N_scope.

(* ------------------------------------------ 4.a group control message (0x2A) *)
Definition mean_gpower (p : gpower_ctl) : change zone_power :=
  match p with GP_Unchanged => Keep | GP_Toggle => Toggle | GP_Off => SetTo ZOff | GP_On => SetTo ZOn | GP_Turbo => SetTo ZTurbo end.
Definition mean_gmethod (m : gmethod_ctl) : change method :=
  match m with GM_Unchanged => Keep | GM_Change => Toggle | GM_Damper => SetTo ByPercentage | GM_Temperature => SetTo ByTemperature end.
Definition mean_gsetting (s : gsetting) : change zone_value :=
  match s with GS_None => Keep | GS_Dec => Decrease | GS_Inc => Increase
             | GS_Damper p => SetTo (Percent p) | GS_SetPoint v => SetTo (SetPointDeg (Z.of_N v * 10)) end.
Definition mean_group_ctrl (c : group_ctrl) : sgroup_ctrl :=
  mkSGC (gc_group c) (mean_gsetting (gc_setting c)) (mean_gmethod (gc_method c)) (mean_gpower (gc_power c)).

Theorem group_ctrl_means c : dom_group_ctrl c = true ->
  exists b1 b2 b3, enc_group_ctrl c = Some [b1; b2; b3; 0] /\ read_group_ctrl b1 b2 b3 = mean_group_ctrl c.
Proof.
  destruct c as [g pw me st]. unfold dom_group_ctrl. cbn [gc_group gc_setting].
  intros H. apply andb_prop in H as [Hg Hs]. apply N.ltb_lt in Hg.
  unfold enc_group_ctrl. cbn [gc_group gc_power gc_method gc_setting].
  rewrite (pack_B_ok g Hg).
  (* byte 2 holds three fields (setting type, method, power) and packed_bits, which serves ac_ctrl_means, reads a byte
     of two: every combination of the three enums (5 x 5 x 4) is computed, only g and the value byte stay symbolic *)
  destruct st as [| | |p|v]; try apply N.ltb_lt in Hs;
    destruct pw, me; cbn -[pack_B]; rewrite ?(pack_B_ok _ Hs); cbn [obind app];
    eexists; eexists; eexists; (split; [reflexivity|]); reflexivity.
Qed.

(* --------------------------------------------- 4.c AC control message (0x2C) *)
Definition mean_apower (p : apower_ctl) : change onoff :=
  match p with AP_Unchanged => Keep | AP_Toggle => Toggle | AP_Off => SetTo POff | AP_On => SetTo POn end.
Definition mean_amode (m : amode_ctl) : change amode :=
  match m with AM_Auto => SetTo AMS_Auto | AM_Heat => SetTo AMS_Heat | AM_Dry => SetTo AMS_Dry | AM_Fan => SetTo AMS_Fan
             | AM_Cool => SetTo AMS_Cool | AM_Unchanged => Keep end.
Definition mean_afan (f : afan_ctl) : change afan :=
  match f with AF_Auto => SetTo AFS_Auto | AF_Quiet => SetTo AFS_Quiet | AF_Low => SetTo AFS_Low | AF_Medium => SetTo AFS_Medium
             | AF_High => SetTo AFS_High | AF_Powerful => SetTo AFS_Powerful | AF_Turbo => SetTo AFS_Turbo | AF_Unchanged => Keep end.
Definition mean_asp (s : asetpoint_ctl) : change Z :=
  match s with AS_None => Keep | AS_Dec => Decrease | AS_Inc => Increase | AS_Value v => SetTo (Z.of_N v * 10)%Z end.
Definition mean_ac_ctrl (c : ac_ctrl) : sac_ctrl :=
  mkSAC (ac_number c) (mean_apower (ac_power c)) (mean_amode (ac_mode c)) (mean_afan (ac_fan c)) (mean_asp (ac_sp c)).

Theorem ac_ctrl_means c : dom_ac_ctrl c = true ->
  exists b1 b2 b3, enc_ac_ctrl c = Some [b1; b2; b3; 0] /\ read_ac_ctrl b1 b2 b3 = mean_ac_ctrl c.
Proof.
  unfold dom_ac_ctrl, enc_ac_ctrl, read_ac_ctrl, mean_ac_ctrl. intros H.
  apply andb_prop in H as [Hn Hs]. apply N.ltb_lt in Hn.
  (* byte 3: control type and value of the set-point *)
  destruct (match ac_sp c with AS_Value v => (1, v) | _ => _ end) as [ct v] eqn:E.
  destruct (packed_bits 0x3F 0xC0 6 8 7 (ac_number c) (apower_ctl_code (ac_power c))) as [L1 [N1 P1]]; [easy..|].
  destruct (packed_bits 0x0F 0xF0 4 8 5 (afan_ctl_code (ac_fan c)) (amode_ctl_code (ac_mode c))) as [L2 [F2 M2]]; [easy..|].
  destruct (packed_bits 0x3F 0xC0 6 8 7 v ct) as [L3 [V3 C3]]; [easy..|].
  rewrite (pack_B_ok _ L1), (pack_B_ok _ L2), (pack_B_ok _ L3). cbn [obind app].
  eexists. eexists. eexists. split; [reflexivity|].
  rewrite N1, P1, F2, M2, V3, C3, (N.mod_small (ac_number c)) by exact Hn. f_equal.
  - now destruct (ac_power c).
  - now destruct (ac_mode c).
  - now destruct (ac_fan c).
  - destruct (ac_sp c) as [| | |v']; injection E as <- <-; try reflexivity.
    apply N.ltb_lt in Hs. now rewrite (N.mod_small v') by exact Hs.
Qed.
