(* StreamProofs.v — the receive path: prefix stability, what a delivery implies (C17),
   independence of segmentation (C13), acceptance of the frames the send path produces
   (C03), and rejection of corrupted frames (C06). *)
From Coq Require Import NArith List Bool Lia Arith.
From PV Require Import base.ListX base.Bits crc.Crc crc.CrcProofs stream.Stream.
Import ListNotations.

Section ReaderProofs.
  Variable msg : Type.
  Variable dec : hdr -> list N -> option msg.
  Notation rx_one := (rx_one msg dec).
  Notation pump := (pump msg dec).
  Notation feed := (feed msg dec).
  Notation feed_all := (feed_all msg dec).

  Definition rx_ext (more : list N) (r : rx msg) : rx msg :=
    match r with RxDeliver h m rest => RxDeliver h m (rest ++ more) | _ => r end.

  (* a decision taken by _read_one_message does not depend on bytes that arrive later *)
  Lemma rx_one_stable g buf more :
    rx_one g buf <> RxMore -> rx_one g (buf ++ more) = rx_ext more (rx_one g buf).
  Proof.
    unfold Stream.rx_one. intros H.
    destruct (Nat.ltb (length buf) (hdr_len g)) eqn:E1; [now destruct H|].
    apply Nat.ltb_ge in E1.
    assert (Nat.ltb (length (buf ++ more)) (hdr_len g) = false) as ->
      by (apply Nat.ltb_ge; rewrite app_length; lia).
    rewrite (firstn_app_le _ _ _ E1), (skipn_app_le _ _ _ E1).
    destruct (dec_hdr g (firstn (hdr_len g) buf)) as [[h0 cd]|]; [|reflexivity].
    set (r1 := skipn (hdr_len g) buf) in *. set (n := N.to_nat (h_len h0)) in *.
    destruct (Nat.ltb (length r1) (n + 2)) eqn:E2; [now destruct H|].
    apply Nat.ltb_ge in E2.
    assert (Nat.ltb (length (r1 ++ more)) (n + 2) = false) as ->
      by (apply Nat.ltb_ge; rewrite app_length; lia).
    rewrite (firstn_app_le n r1 more) by lia.
    rewrite (skipn_app_le n r1 more) by lia.
    rewrite (firstn_app_le 2 (skipn n r1) more) by (rewrite skipn_length; lia).
    rewrite (skipn_app_le (n + 2) r1 more) by lia.
    destruct (validate _ _); [|reflexivity].
    destruct (dec h0 (firstn n r1)); reflexivity.
  Qed.

  (* whatever is delivered is the decoding of the payload of a frame whose header parsed
     and whose check bytes validated; nothing else is ever delivered *)
  Lemma deliver_inv g buf h m rest :
    rx_one g buf = RxDeliver h m rest ->
    exists cd payload chk,
      dec_hdr g (firstn (hdr_len g) buf) = Some (h, cd) /\
      payload = firstn (N.to_nat (h_len h)) (skipn (hdr_len g) buf) /\
      chk = firstn 2 (skipn (N.to_nat (h_len h)) (skipn (hdr_len g) buf)) /\
      validate (cd ++ payload) chk = true /\
      dec h payload = Some m /\
      rest = skipn (N.to_nat (h_len h) + 2) (skipn (hdr_len g) buf).
  Proof.
    unfold Stream.rx_one. destruct (Nat.ltb (length buf) (hdr_len g)); [discriminate|].
    destruct (dec_hdr g (firstn (hdr_len g) buf)) as [[h' cd]|]; [|discriminate].
    destruct (Nat.ltb _ _); [discriminate|].
    destruct (validate _ _) eqn:V; [|discriminate].
    destruct (dec h' _) as [m'|] eqn:D; [|discriminate].
    intros H. injection H as <- <- <-. exists cd. eexists. eexists. repeat split; try reflexivity; assumption.
  Qed.

  Lemma rx_one_deliver_shorter g buf h m rest :
    rx_one g buf = RxDeliver h m rest -> (length rest < length buf)%nat.
  Proof.
    intros H. destruct buf; [destruct g; discriminate|].
    apply deliver_inv in H as (_ & _ & _ & _ & _ & _ & _ & _ & ->).
    rewrite !skipn_length. cbn [length]. lia.
  Qed.

  Lemma pump_fuel g : forall f1 f2 buf, (length buf < f1)%nat -> (length buf < f2)%nat ->
    pump g f1 buf = pump g f2 buf.
  Proof.
    induction f1 as [|f1 IH]; intros f2 buf H1 H2; [lia|].
    destruct f2 as [|f2]; [lia|]. cbn.
    destruct (rx_one g buf) as [| |h m rest] eqn:E; try reflexivity.
    pose proof (rx_one_deliver_shorter _ _ _ _ _ E).
    rewrite (IH f2 rest); [reflexivity|lia|lia].
  Qed.

  (* pumping buf ++ more = pumping buf, then feeding more to what was left *)
  Lemma pump_app g : forall f buf more, (length buf < f)%nat ->
    feed g (Some buf) more =
    let '(ds, st) := pump g f buf in let '(ds', st') := feed g st more in (ds ++ ds', st').
  Proof.
    induction f as [|f IH]; intros buf more Hf; [lia|].
    cbn [Stream.pump]. destruct (rx_one g buf) as [| |h m rest] eqn:E.
    - now destruct (feed g (Some buf) more).
    - cbn [Stream.feed Stream.pump]. now rewrite rx_one_stable, E by (rewrite E; discriminate).
    - pose proof (rx_one_deliver_shorter _ _ _ _ _ E) as Hs.
      unfold Stream.feed at 1. cbn [Stream.pump]. rewrite rx_one_stable, E by (rewrite E; discriminate). cbn [rx_ext].
      rewrite (pump_fuel g _ (S (length (rest ++ more))) (rest ++ more)) by (rewrite !app_length in *; lia).
      change (pump g (S (length (rest ++ more))) (rest ++ more)) with (feed g (Some rest) more).
      rewrite (IH rest more) by lia.
      destruct (pump g f rest) as [ds st]. now destruct (feed g st more).
  Qed.

  Lemma feed_app g buf c1 c2 :
    feed g (Some buf) (c1 ++ c2) =
    let '(d1, st1) := feed g (Some buf) c1 in
    let '(d2, st2) := feed g st1 c2 in (d1 ++ d2, st2).
  Proof. unfold Stream.feed at 1 2. rewrite app_assoc. apply (pump_app g _ (buf ++ c1) c2). lia. Qed.

  Lemma feed_all_dead g cs : feed_all g None cs = ([], None).
  Proof. induction cs as [|c cs IH]; cbn; [reflexivity|]. now rewrite IH. Qed.

  Definition settled (g : gen) (st : rstate) : Prop := forall b, st = Some b -> rx_one g b = RxMore.

  Lemma feed_nil g st : settled g st -> feed g st [] = ([], st).
  Proof.
    intros H. destruct st as [b|]; [|reflexivity]. unfold Stream.feed. rewrite app_nil_r. cbn.
    now rewrite (H b eq_refl).
  Qed.

  Lemma pump_settled g : forall f buf, (length buf < f)%nat -> settled g (snd (pump g f buf)).
  Proof.
    induction f as [|f IH]; intros buf Hf; [lia|]. cbn [Stream.pump].
    destruct (rx_one g buf) as [| |h m rest] eqn:E.
    - intros b [= <-]. exact E.
    - intros b [=].
    - specialize (IH rest). destruct (pump g f rest). apply IH. apply rx_one_deliver_shorter in E. lia.
  Qed.

  Lemma feed_settled g st c : settled g (snd (feed g st c)).
  Proof. destruct st as [buf|]; [apply pump_settled; lia|intros b [=]]. Qed.

  (* C13: for every segmentation of the stream the deliveries and the final state are
     those of the unsegmented stream *)
  Theorem segmentation_independent g : forall chunks st,
    settled g st ->
    feed_all g st chunks = feed g st (concat chunks).
  Proof.
    induction chunks as [|c cs IH]; intros st Hst.
    - cbn. symmetry. now apply feed_nil.
    - cbn [Stream.feed_all concat]. destruct st as [buf|].
      + rewrite feed_app. pose proof (feed_settled g (Some buf) c) as Hs1.
        destruct (feed g (Some buf) c) as [d1 st1]. now rewrite (IH st1 Hs1).
      + cbn [Stream.feed]. now rewrite feed_all_dead.
  Qed.
End ReaderProofs.

Open Scope N_scope.

Lemma be16_hi_lo v : be16 (hi8 v) (lo8 v) = v.
Proof. apply be16_div_mod. Qed.

Lemma hi8_lt v : v < 65536 -> hi8 v < 256.
Proof. intros H. unfold hi8. apply N.div_lt_upper_bound; [discriminate|exact H]. Qed.

Lemma lo8_lt v : lo8 v < 256.
Proof. unfold lo8. apply N.mod_lt. discriminate. Qed.

Lemma dec_hdr_pre g h t f p ty :
  dec_hdr g (pre g h ++ [t; f; p; ty; hi8 (h_len h); lo8 (h_len h)]) =
  Some (mkHdr t f p ty (h_len h), [t; f; p; ty; hi8 (h_len h); lo8 (h_len h)]).
Proof. destruct g; cbn [pre app dec_hdr]; rewrite ?N.eqb_refl, !be16_hi_lo, ?N.eqb_refl; reflexivity. Qed.

Lemma dec_enc_hdr g h : dec_hdr g (enc_hdr g h) = Some (h, cov h).
Proof. destruct h. apply dec_hdr_pre. Qed.

(* the low byte decides alone below 256: no bound on the high bytes is needed *)
Lemma be16_xor_neq lh ll e4 e5 :
  ll < 256 -> e5 < 256 -> (e4 <> 0 \/ e5 <> 0) ->
  be16 (N.lxor lh e4) (N.lxor ll e5) <> be16 lh ll.
Proof.
  intros H2 H4 Hne E. unfold be16 in E.
  assert (B : N.lxor ll e5 < 256) by (apply (fits_lt 8), fits_lxor; now apply (fits_lt 8)).
  assert (N.lxor lh e4 = lh /\ N.lxor ll e5 = ll) as [E1 E2] by lia.
  destruct Hne as [Hne|Hne]; apply Hne.
  - apply (lxor_cancel_l lh). now rewrite E1, N.lxor_0_r.
  - apply (lxor_cancel_l ll). now rewrite E2, N.lxor_0_r.
Qed.

(* AT5 repeats the length outside the span of the checksum: an altered length field no
   longer matches it *)
Lemma dec_hdr5_len_flip h t f p ty e4 e5 :
  e5 < 256 -> (e4 <> 0 \/ e5 <> 0) ->
  dec_hdr AT5 (pre AT5 h ++ [t; f; p; ty; N.lxor (hi8 (h_len h)) e4; N.lxor (lo8 (h_len h)) e5]) = None.
Proof.
  intros B5 Hne. cbn [pre app dec_hdr]. rewrite !N.eqb_refl, !be16_hi_lo. cbn [andb].
  pose proof (be16_xor_neq (hi8 (h_len h)) _ e4 e5 (lo8_lt (h_len h)) B5 Hne) as Hn.
  rewrite be16_hi_lo in Hn.
  assert ((10 + h_len h + 2 =? 10 + be16 (N.lxor (hi8 (h_len h)) e4) (N.lxor (lo8 (h_len h)) e5) + 2) = false) as ->
    by (apply N.eqb_neq; lia).
  reflexivity.
Qed.

Lemma cov_ok g h : hdr_encodable g h = true -> bytes_ok (cov h).
Proof.
  unfold hdr_encodable. rewrite !andb_true_iff, !N.ltb_lt. intros [[[[? ?] ?] ?] Hg].
  assert (h_len h < 65536) by (destruct g; apply N.ltb_lt in Hg; lia).
  repeat constructor; auto using hi8_lt, lo8_lt.
Qed.

Lemma validate_self bs : validate bs (check_bytes bs) = true.
Proof. unfold validate, check_bytes. now rewrite !N.eqb_refl. Qed.

Lemma length_enc_hdr g h : length (enc_hdr g h) = hdr_len g.
Proof. destruct g; reflexivity. Qed.

(* what one pass of the reader does on the frames the send path writes, and on corrupted ones *)
Section FrameProofs.
  Variable msg : Type.
  Variable dec : hdr -> list N -> option msg.
  Notation rx_one := (rx_one msg dec).

  (* the shape of one pass over header bytes, payload, two check bytes, rest *)
  Lemma rx_one_shape g hb h' cd pl chk rest :
    length hb = hdr_len g -> dec_hdr g hb = Some (h', cd) -> N.to_nat (h_len h') = length pl ->
    length chk = 2%nat ->
    rx_one g (hb ++ pl ++ chk ++ rest) =
    if validate (cd ++ pl) chk
    then match dec h' pl with Some m => RxDeliver h' m rest | None => RxReset end
    else RxReset.
  Proof.
    intros Hh Hd Hn Hc. unfold Stream.rx_one. rewrite <- Hh, <- Hc.
    assert (Nat.ltb (length (hb ++ pl ++ chk ++ rest)) (length hb) = false) as ->
      by (apply Nat.ltb_ge; rewrite app_length; lia).
    rewrite firstn_app_exact, skipn_app_exact, Hd, Hn.
    assert (Nat.ltb (length (pl ++ chk ++ rest)) (length pl + length chk) = false) as ->
      by (apply Nat.ltb_ge; rewrite !app_length; lia).
    rewrite firstn_app_exact, skipn_app_exact, firstn_app_exact.
    destruct (validate _ _); [|reflexivity]. destruct (dec h' pl); [|reflexivity].
    now rewrite <- app_length, app_assoc, skipn_app_exact.
  Qed.

  Lemma rx_one_bad_header g hb tail :
    length hb = hdr_len g -> dec_hdr g hb = None -> rx_one g (hb ++ tail) = RxReset.
  Proof.
    intros Hh Hd. unfold Stream.rx_one. rewrite <- Hh.
    assert (Nat.ltb (length (hb ++ tail)) (length hb) = false) as ->
      by (apply Nat.ltb_ge; rewrite app_length; lia).
    now rewrite firstn_app_exact, Hd.
  Qed.

  (* a frame produced by the send path: the header parses, the check bytes validate, and
     the outcome is the message decoder's *)
  Lemma rx_one_framed g h payload rest :
    length payload = N.to_nat (h_len h) ->
    rx_one g (frame g h payload ++ rest) =
    match dec h payload with Some m => RxDeliver h m rest | None => RxReset end.
  Proof.
    intros Hl. unfold frame. rewrite <- !app_assoc.
    rewrite (rx_one_shape g _ h (cov h) payload (check_bytes _) rest (length_enc_hdr g h) (dec_enc_hdr g h) (eq_sym Hl) eq_refl).
    now rewrite validate_self.
  Qed.

  (* The frame with its covered bytes (address..length, payload) altered by
     [e0..e5] ++ emp and its check bytes altered by (eh, el). *)
  Definition corrupt (g : gen) (h : hdr) (payload : list N)
             (e0 e1 e2 e3 e4 e5 : N) (emp : list N) (eh el : N) : list N :=
    let c := crc_tbl (cov h ++ payload) in
    (pre g h ++
     [N.lxor (h_to h) e0; N.lxor (h_from h) e1; N.lxor (h_pid h) e2; N.lxor (h_type h) e3;
      N.lxor (hi8 (h_len h)) e4; N.lxor (lo8 (h_len h)) e5]) ++
    xor_list payload emp ++ [N.lxor (N.shiftr c 8) eh; N.lxor (N.land c 255) el].

  (* AirTouch 4 has no redundancy for the length field (C06_at4_length_flip_refuted), so there the pattern must
     leave it alone; an altered AirTouch 5 length no longer matches its copy outside the checksum's span *)
  Theorem frame_detect g h payload e0 e1 e2 e3 e4 e5 emp eh el rest :
    hdr_encodable g h = true -> bytes_ok payload -> length payload = N.to_nat (h_len h) ->
    length emp = length payload ->
    detectable (6 + length payload) ([e0; e1; e2; e3; e4; e5] ++ emp) eh el ->
    (g = AT4 -> e4 = 0 /\ e5 = 0) ->
    rx_one g (corrupt g h payload e0 e1 e2 e3 e4 e5 emp eh el ++ rest) = RxReset.
  Proof.
    intros He Hp Hl Hle Hd H4. unfold corrupt.
    rewrite <- (app_assoc (pre g h ++ _)), <- (app_assoc (xor_list payload emp)).
    assert (Hcase : e4 = 0 /\ e5 = 0 \/ g = AT5 /\ (e4 <> 0 \/ e5 <> 0)).
    { destruct g; [left; now apply H4|]. destruct (N.eq_dec e4 0), (N.eq_dec e5 0); auto. }
    destruct Hcase as [[-> ->]|[-> Hne]].
    - (* length field intact: the header parses and the checksum decides *)
      pose proof (detect _ _ _ _ Hd (cov h ++ payload) (bytes_ok_app _ _ (cov_ok g h He) Hp) eq_refl) as Hval.
      set (c := crc_tbl _) in *. cbn [cov app xor_list] in Hval. rewrite !N.lxor_0_r in *.
      erewrite (rx_one_shape g _ _ _ (xor_list payload emp) [_; _] rest);
        [|destruct g; reflexivity|apply dec_hdr_pre|cbn [h_len]; rewrite length_xor_list; lia|reflexivity].
      cbn [app]. now rewrite Hval.
    - apply rx_one_bad_header; [reflexivity|apply dec_hdr5_len_flip; [|exact Hne]].
      apply (proj1 (Forall_forall _ _) (proj1 (detectable_wf _ _ _ _ Hd))). cbn. tauto.
  Qed.
End FrameProofs.
