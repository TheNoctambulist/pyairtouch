(* Tolerant.v — C17: the decoders of both generations turn unknown message types and
   sub-types into unsupported messages that carry the payload unchanged. *)
From Coq Require Import NArith List Bool.
From PV Require Import at4.Msg4 at4.Codec4 at5.Msg5 at5.Codec5.
Import ListNotations.
Open Scope N_scope.

(* the ids the registries know (registry.py of each generation) *)
Definition registered4 (ty : N) : bool := existsb (N.eqb ty) [0x1F; 0x2A; 0x2B; 0x2C; 0x2D; 0x36; 0x37].
Definition registered5 (ty : N) : bool := existsb (N.eqb ty) [0x1F; 0xC0].
Definition registered_sub4 (id : N) : bool := existsb (N.eqb id) [0xFF10; 0xFF11; 0xFF12; 0xFF20; 0xFF30].
Definition registered_sub5 (id : N) : bool := existsb (N.eqb id) [0xFF10; 0xFF11; 0xFF13; 0xFF30; 0xFF49].
Definition registered_c0 (id : N) : bool := existsb (N.eqb id) [0x20; 0x21; 0x22; 0x23; 0x32; 0x33].

(* an id outside the registry fails every test of a dispatch chain over registered ids *)
Lemma unregistered x l : existsb (N.eqb x) l = false -> forall c, In c l -> (x =? c) = false.
Proof. induction l as [|a l IH]; cbn; [tauto|]. intros [E H]%orb_false_iff c [<-|Hc]; auto. Qed.

Lemma unknown_type4 ty p : registered4 ty = false -> dec4 ty p = Some (M_Unsupported ty p).
Proof. intros H. unfold dec4. now rewrite !(unregistered _ _ H) by (cbn; tauto). Qed.

Lemma unknown_type5 ty p : registered5 ty = false -> dec5 ty p = Some (M5_Unsupported ty p).
Proof. intros H. unfold dec5. now rewrite !(unregistered _ _ H) by (cbn; tauto). Qed.

Lemma unknown_sub4 i1 i0 b : registered_sub4 (i1 * 256 + i0) = false ->
  dec4 0x1F (i1 :: i0 :: b) = Some (M_Ext (S_Unsupported (i1 * 256 + i0) b)).
Proof.
  intros H. unfold dec4. cbn [N.eqb Pos.eqb].
  unfold dec_sub. rewrite !(unregistered _ _ H) by (cbn; tauto). now rewrite firstn_all, skipn_all.
Qed.

Lemma unknown_sub5 i1 i0 b : registered_sub5 (i1 * 256 + i0) = false ->
  dec5 0x1F (i1 :: i0 :: b) = Some (M5_Ext (S5_Unsupported (i1 * 256 + i0) b)).
Proof.
  intros H. unfold dec5. cbn [N.eqb Pos.eqb].
  unfold dec_sub5. rewrite !(unregistered _ _ H) by (cbn; tauto). now rewrite firstn_all, skipn_all.
Qed.

Lemma unknown_c0 id pad n1 n0 l1 l0 c1 c0 body :
  registered_c0 id = false ->
  length body = (N.to_nat (n1 * 256 + n0) + N.to_nat (c1 * 256 + c0) * N.to_nat (l1 * 256 + l0))%nat ->
  dec5 0xC0 (id :: pad :: n1 :: n0 :: l1 :: l0 :: c1 :: c0 :: body) = Some (M5_Ctl (C_Unsupported id body)).
Proof.
  intros H L. unfold dec5. cbn [N.eqb Pos.eqb dec_c0].
  unfold dec_c0_body. rewrite !(unregistered _ _ H) by (cbn; tauto). cbn zeta. rewrite <- L, firstn_all, skipn_all. reflexivity.
Qed.
