(* WireProofs.v — send path followed by receive path is the identity on messages.  fits4 / fits5, defined
   here, are hypotheses of C03_frame_roundtrip_4 / _5 and are extracted with the domains (extract/Doms.v). *)
From Coq Require Import NArith List Lia.
From PV Require Import base.Res crc.Crc stream.Stream stream.StreamProofs stream.Wire
  at4.Msg4 at4.Codec4 at4.Codec4Proofs at5.Msg5 at5.Codec5 at5.Codec5Proofs.
Import ListNotations.
Open Scope N_scope.

Lemma to_address_lt ty : to_address ty < 256.
Proof. unfold to_address. destruct (ty =? 0x1F); reflexivity. Qed.

(* the payload fits the 16-bit length field of the header (AT5: with the 12 bytes the
   outer length adds) *)
Definition fits4 (m : msg4) : bool := match size4 m with Some n => N.of_nat n <? 65524 | None => false end.
Definition fits5 (m : msg5) : bool := match size5 m with Some n => N.of_nat n <? 65524 | None => false end.

Lemma type_of_lt m : dom4 m = true -> type_of m < 256.
Proof. destruct m; cbn; intros H; try reflexivity; discriminate H. Qed.
Lemma type_of5_lt m : dom5 m = true -> type_of5 m < 256.
Proof. destruct m; cbn; intros H; try reflexivity; discriminate H. Qed.

Lemma encodable g ty pid n : ty < 256 -> pid < 256 -> N.of_nat n < 65524 ->
  hdr_encodable g (header_for ty pid n) = true.
Proof.
  intros Ht Hp Hn. unfold hdr_encodable, header_for. cbn [h_to h_from h_pid h_type h_len].
  pose proof (to_address_lt ty).
  repeat (apply andb_true_intro; split); try (apply N.ltb_lt; assumption || reflexivity).
  destruct g; apply N.ltb_lt; lia.
Qed.

(* send4 and send5 are one send path over the generation's size(), encoder and type code (each is send_with at
   its own by conversion, which is how props/C03.v and C04.v instantiate the lemmas below); the receive path is
   rx_one over its decoder. *)
Section Send.
  Context {M : Type} (size : M -> option nat) (enc : M -> option (list N)) (dec : N -> list N -> option M)
          (ty : M -> N) (g : gen).

  Definition send_with (m : M) (pid : N) : option (hdr * list N) :=
    n <- size m ;; p <- enc m ;;
    let h := header_for (ty m) pid n in
    if hdr_encodable g h then Some (h, frame g h p) else None.

  Lemma send_with_inv m pid h f : send_with m pid = Some (h, f) ->
    exists n p, size m = Some n /\ enc m = Some p /\ h = header_for (ty m) pid n /\ f = frame g h p.
  Proof.
    unfold send_with. destruct (size m) as [n|]; [|discriminate]. destruct (enc m) as [p|]; [|discriminate]. cbn [obind].
    destruct (hdr_encodable g _); [|discriminate]. intros H. injection H as <- <-. now exists n, p.
  Qed.

  Lemma send_with_roundtrip m pid rest :
    (exists p, enc m = Some p /\ size m = Some (length p) /\ dec (ty m) p = Some m) ->
    match size m with Some n => N.of_nat n <? 65524 | None => false end = true -> ty m < 256 -> pid < 256 ->
    exists h f, send_with m pid = Some (h, f) /\
                h_to h = to_address (ty m) /\ h_from h = 0xB0 /\ h_pid h = pid /\ h_type h = ty m /\
                rx_one M (fun h => dec (h_type h)) g (f ++ rest) = RxDeliver h m rest.
  Proof.
    intros [p [E [Sz D]]] Hf Ht Hp. rewrite Sz in Hf. apply N.ltb_lt in Hf.
    pose proof (encodable g (ty m) pid (length p) Ht Hp Hf) as He.
    unfold send_with. rewrite Sz, E. cbn [obind]. rewrite He.
    eexists. eexists. split; [reflexivity|]. repeat (split; [reflexivity|]).
    rewrite rx_one_framed; [cbn; now rewrite D|].
    unfold header_for. cbn [h_len]. now rewrite Nat2N.id.
  Qed.

  Lemma send_with_length m pid h f : send_with m pid = Some (h, f) ->
    exists p, enc m = Some p /\ size m = Some (N.to_nat (h_len h)) /\ f = frame g h p.
  Proof.
    intros H. destruct (send_with_inv m pid h f H) as [n [p [Sz [E [-> ->]]]]].
    exists p. split; [exact E|]. split; [|reflexivity]. unfold header_for. cbn [h_len]. now rewrite Nat2N.id.
  Qed.

  Lemma send_with_addressing m pid h f : send_with m pid = Some (h, f) ->
    h_to h = (if ty m =? 0x1F then 0x90 else 0x80) /\ h_from h = 0xB0 /\ h_pid h = pid /\ h_type h = ty m /\
    exists p, enc m = Some p /\ f = enc_hdr g h ++ p ++ check_bytes (cov h ++ p) /\
              validate (cov h ++ p) (check_bytes (cov h ++ p)) = true.
  Proof.
    intros H. destruct (send_with_inv m pid h f H) as [n [p [Sz [E [-> ->]]]]].
    repeat (split; [reflexivity|]). exists p. split; [exact E|]. split; [reflexivity|]. apply validate_self.
  Qed.
End Send.
