(* Codec4Proofs.v — C03 for AirTouch 4: every message in the domain encodes to a payload
   of the announced size which decodes back to the same message.
   The domain dom4 and its parts (dom_*, is_nil, sep_free, keys_distinct, dom_str, leqb, canon_groups), defined here
   among the lemmas, each ahead of its first use, are no proof machinery: props/C03.v, props/C04.v and
   spec/Command4.v state their theorems over them, api/ApiProofs.v proves them of what the API sends, dom5 reuses
   them, and extract/Doms.v extracts dom4 for the harness. *)
From Coq Require Import NArith ZArith List Bool Lia.
From PV Require Import base.Res base.Utf8 base.ListX base.Bits at4.Msg4 at4.Codec4.
Import ListNotations.
Open Scope N_scope.

Lemma below3_forall (f : N -> N -> N -> bool) n m k :
  forallb (fun a => forallb (fun b => forallb (f a b) (below k)) (below m)) (below n) = true ->
  forall a b c, a < N.of_nat n -> b < N.of_nat m -> c < N.of_nat k -> f a b c = true.
Proof. intros H a b c Ha Hb Hc. exact (below_forall _ _ (below_forall _ _ (below_forall _ _ H a Ha) b Hb) c Hc). Qed.

Lemma pack_B_ok v : v < 256 -> pack_B v = Some [v].
Proof. intros H. unfold pack_B. apply N.ltb_lt in H. now rewrite H. Qed.

Lemma pack_H_ok v : v < 65536 -> pack_H v = Some [v / 256; v mod 256].
Proof. intros H. unfold pack_H. apply N.ltb_lt in H. now rewrite H. Qed.

Lemma chunks_step fuel n l : l <> [] -> (n <= length l)%nat ->
  chunks (S fuel) n l = (rs <- chunks fuel n (skipn n l) ;; Some (firstn n l :: rs)).
Proof.
  intros Hne Hl. destruct l as [|x l]; [contradiction|]. cbn [chunks].
  assert (Nat.ltb (length (x :: l)) n = false) as -> by (apply Nat.ltb_ge; exact Hl). reflexivity.
Qed.

Lemma chunks_concat n : forall (rs : list (list N)) fuel,
  (0 < n)%nat -> Forall (fun r => length r = n) rs -> (length rs <= fuel)%nat ->
  chunks fuel n (concat rs) = Some rs.
Proof.
  induction rs as [|r rs IH]; intros fuel Hn Hf Hfuel.
  - destruct fuel; reflexivity.
  - inversion Hf as [|? ? Hr Hrs]; subst.
    destruct fuel as [|fuel]; [cbn in Hfuel; lia|].
    cbn [concat]. rewrite chunks_step.
    + rewrite skipn_app_exact, (IH fuel Hn Hrs ltac:(cbn in Hfuel; lia)). cbn [obind]. now rewrite firstn_app_exact.
    + destruct r; [cbn in Hn; lia|discriminate].
    + rewrite app_length. lia.
Qed.

Lemma sequence_map_some {A B} (f : A -> option B) (g : A -> B) l :
  (forall a, In a l -> f a = Some (g a)) -> sequence (map f l) = Some (map g l).
Proof.
  induction l as [|a l IH]; intros H; cbn; [reflexivity|].
  rewrite (H a (or_introl eq_refl)). cbn. rewrite IH; [reflexivity|]. intros x Hx. apply H. now right.
Qed.

Lemma concat_length_const {A} n (rs : list (list A)) :
  Forall (fun r => length r = n) rs -> length (concat rs) = (n * length rs)%nat.
Proof. induction 1 as [|r rs Hr _ IH]; cbn [concat length]; [lia|]. rewrite app_length, Hr, IH. lia. Qed.

(* records that round-trip one by one: the encoded records and what the record decoder makes of them *)
Lemma enc_list_records {A} (enc : A -> option (list N)) (dec : list N -> option A) (dom : A -> bool) n l :
  (forall a, dom a = true -> exists r, enc a = Some r /\ length r = n /\ dec r = Some a) ->
  forallb dom l = true ->
  exists rs, sequence (map enc l) = Some rs /\ Forall (fun r => length r = n) rs /\
             length rs = length l /\ sequence (map dec rs) = Some l.
Proof.
  intros RT. induction l as [|a l IH]; cbn [forallb map sequence]; intros H.
  - exists []. repeat split; constructor.
  - apply andb_prop in H as [Ha Hl]. destruct (RT a Ha) as [r [E [L D]]]. destruct (IH Hl) as [rs [S1 [F [Ln S2]]]].
    exists (r :: rs). rewrite E, S1. cbn. rewrite D, S2, Ln. repeat split. now constructor.
Qed.

Definition is_nil {A} (l : list A) : bool := match l with [] => true | _ => false end.

(* a non-empty list of fixed-size records: the payload decodes back, and it passes the decoders' guards
   (not a request, a whole number of records) *)
Lemma list_roundtrip {A} (enc : A -> option (list N)) (dec : list N -> option A) (dom : A -> bool) n l :
  (1 < n)%nat -> (forall a, dom a = true -> exists r, enc a = Some r /\ length r = n /\ dec r = Some a) ->
  negb (is_nil l) && forallb dom l = true ->
  exists p, enc_list enc l = Some p /\ length p = (n * length l)%nat /\ dec_list n dec p = Some l /\
            Nat.eqb (length p) 0 = false /\ Nat.eqb (length p) 1 = false /\ Nat.eqb (length p mod n) 0 = true.
Proof.
  intros Hn RT H. apply andb_prop in H as [Hne Hl].
  destruct (enc_list_records enc dec dom n l RT Hl) as [rs [S1 [F [Ln S2]]]].
  pose proof (concat_length_const n rs F) as Lc. rewrite Ln in Lc.
  assert (0 < length l)%nat by (destruct l; [discriminate Hne|cbn; lia]).
  exists (concat rs). unfold enc_list, dec_list. rewrite S1. cbn [obind]. rewrite Lc.
  split; [reflexivity|]. split; [reflexivity|]. split.
  - now rewrite (chunks_concat n rs (S (n * length l)) ltac:(lia) F ltac:(nia)).
  - split; [apply Nat.eqb_neq; nia|]. split; [apply Nat.eqb_neq; nia|].
    apply Nat.eqb_eq. rewrite Nat.mul_comm. apply Nat.mod_mul. lia.
Qed.

(* enumerations: the decoder inverts the code; the code fits its field; UNCHANGED = 0xFF of the control enums
   is still recognised when the field keeps only its low four bits.
   A *_code_lt bound is 2^w for the width w of the field the code goes into. *)
Lemma gpower_ctl_rt p : gpower_ctl_of (gpower_ctl_code p) = Some p. Proof. destruct p; reflexivity. Qed.
Lemma gmethod_ctl_rt p : gmethod_ctl_of (gmethod_ctl_code p) = Some p. Proof. destruct p; reflexivity. Qed.
Lemma gpower_rt p : gpower_of (gpower_code p) = Some p. Proof. destruct p; reflexivity. Qed.
Lemma gmethod_rt p : gmethod_of (gmethod_code p) = Some p. Proof. destruct p; reflexivity. Qed.
Lemma battery_rt p : battery_of (battery_code p) = Some p. Proof. destruct p; reflexivity. Qed.
Lemma apower_ctl_rt p : apower_ctl_of (apower_ctl_code p) = Some p. Proof. destruct p; reflexivity. Qed.
Lemma apower_rt p : apower_of (apower_code p) = Some p. Proof. destruct p; reflexivity. Qed.
Lemma amode_rt p : amode_of (amode_code p) = Some p. Proof. destruct p; reflexivity. Qed.
Lemma afan_rt p : afan_of (afan_code p) = Some p. Proof. destruct p; reflexivity. Qed.
Lemma timer_type_rt p : timer_type_of (timer_type_code p) = Some p. Proof. destruct p; reflexivity. Qed.
Lemma gpower_ctl_code_lt p : gpower_ctl_code p < 2^3. Proof. destruct p; reflexivity. Qed.
Lemma gmethod_ctl_code_lt p : gmethod_ctl_code p < 2^2. Proof. destruct p; reflexivity. Qed.
Lemma apower_ctl_code_lt p : apower_ctl_code p < 2^2. Proof. destruct p; reflexivity. Qed.
Lemma gpower_code_lt p : gpower_code p < 2^2. Proof. destruct p; reflexivity. Qed.
Lemma gmethod_code_lt p : gmethod_code p < 2^1. Proof. destruct p; reflexivity. Qed.
Lemma battery_code_lt p : battery_code p < 2^1. Proof. destruct p; reflexivity. Qed.
Lemma apower_code_lt p : apower_code p < 2^2. Proof. destruct p; reflexivity. Qed.
Lemma amode_code_lt p : amode_code p < 2^4. Proof. destruct p; reflexivity. Qed.
Lemma afan_code_lt p : afan_code p < 2^4. Proof. destruct p; reflexivity. Qed.
Lemma amode_ctl_rt_nibble m : amode_ctl_of (amode_ctl_code m mod 2^4) = m. Proof. destruct m; reflexivity. Qed.
Lemma afan_ctl_rt_nibble f : afan_ctl_of (afan_ctl_code f mod 2^4) = f. Proof. destruct f; reflexivity. Qed.

Definition dom_group_ctrl (c : group_ctrl) : bool :=
  (gc_group c <? 256) &&
  match gc_setting c with GS_Damper p => p <? 256 | GS_SetPoint v => v <? 256 | _ => true end.

Lemma group_ctrl_roundtrip c : dom_group_ctrl c = true ->
  exists p, enc_group_ctrl c = Some p /\ length p = 4%nat /\ dec_group_ctrl p = Some (c, []).
Proof.
  destruct c as [g pw me st]. unfold dom_group_ctrl, enc_group_ctrl. cbn [gc_group gc_power gc_method gc_setting].
  intros H. apply andb_prop in H as [Hg%N.ltb_lt Hs].
  set (tv := match st with GS_None => _ | _ => _ end).
  assert (Hst : exists t sv, tv = (t, sv) /\ t < 2^3 /\ sv < 256 /\
                 (if t =? 2 then GS_Dec else if t =? 3 then GS_Inc else if t =? 5 then GS_SetPoint sv
                  else if t =? 4 then GS_Damper sv else GS_None) = st).
  { subst tv. destruct st; try apply N.ltb_lt in Hs; eexists; eexists; repeat split; assumption || reflexivity. }
  destruct Hst as [t [sv [-> [Ht [Hsv Dst]]]]]. pose proof (gpower_ctl_code_lt pw) as Hpc.
  (* byte 2: setting type above bit 5, below it method and power as a field pair of their own *)
  destruct (cat_masked 3 2 0x18 0x07 (gmethod_ctl_code me) (gpower_ctl_code pw) eq_refl eq_refl) as [Llo [Plo Mlo]].
  rewrite (land_low _ 3 0x07 eq_refl Hpc) in Llo, Plo, Mlo. rewrite N.mod_small in Plo, Mlo by (exact Hpc || apply gmethod_ctl_code_lt).
  rewrite <- N.add_assoc, (pack_B_ok g Hg), (pack_B_ok _ (cat_lt _ _ 5 Llo 3 Ht)), (pack_B_ok sv Hsv). cbn [obind app].
  eexists. split; [reflexivity|]. split; [reflexivity|].
  unfold dec_group_ctrl. rewrite !(cat_low _ _ 5 Llo), Plo, Mlo, gpower_ctl_rt, gmethod_ctl_rt by reflexivity. cbn [obind].
  now rewrite (cat_high _ _ 5 Llo 7), (land_low t 3 7 eq_refl Ht), Dst by reflexivity.
Qed.

Definition dom_ac_ctrl (c : ac_ctrl) : bool :=
  (ac_number c <? 64) && match ac_sp c with AS_Value v => v <? 64 | _ => true end.

Lemma ac_ctrl_roundtrip c : dom_ac_ctrl c = true ->
  exists p, enc_ac_ctrl c = Some p /\ length p = 4%nat /\ dec_ac_ctrl p = Some (c, []).
Proof.
  destruct c as [n pw mo fa sp]. unfold dom_ac_ctrl, enc_ac_ctrl. cbn [ac_number ac_power ac_mode ac_fan ac_sp].
  intros H. apply andb_prop in H as [Hn%N.ltb_lt Hs].
  destruct (cat_masked 6 2 0xC0 0x3F (apower_ctl_code pw) n eq_refl eq_refl) as [L1 [N1 P1]].
  destruct (cat_masked 4 4 0xF0 0x0F (amode_ctl_code mo) (afan_ctl_code fa) eq_refl eq_refl) as [L2 [F2 M2]].
  (* byte 3: set-point command ct and value v *)
  set (cv := match sp with AS_None => _ | _ => _ end).
  assert (Hb3 : exists ct v, cv = (ct, v) /\ ct < 4 /\ v < 64 /\
                 (if ct =? 3 then AS_Inc else if ct =? 2 then AS_Dec else if ct =? 1 then AS_Value v else AS_None) = sp).
  { subst cv. destruct sp; try apply N.ltb_lt in Hs; eexists; eexists; repeat split; assumption || reflexivity. }
  destruct Hb3 as [ct [v [-> [Hct [Hv Dsp]]]]].
  destruct (cat_masked 6 2 0xC0 0x3F ct v eq_refl eq_refl) as [L3 [V3 C3]].
  rewrite (pack_B_ok _ L1), (pack_B_ok _ L2), (pack_B_ok _ L3). cbn [obind app].
  eexists. split; [reflexivity|]. split; [reflexivity|].
  unfold dec_ac_ctrl. rewrite N1, P1, F2, M2, V3, C3, amode_ctl_rt_nibble, afan_ctl_rt_nibble.
  now rewrite !N.mod_small, apower_ctl_rt, Dsp by (assumption || apply apower_ctl_code_lt).
Qed.

(* in range the 11-bit value lands in bits 5..15 and the mask does nothing *)
Lemma enc_temp_field d : (-500 <= d < 1548)%Z -> enc_temp d = Some (N.shiftl (Z.to_N (d + 500)) 5).
Proof.
  intros H. unfold enc_temp. destruct (Z.leb_spec 0 (d + 500)); [|lia].
  change 0xFFE0 with (N.shiftl (N.ones 11) 5). now rewrite <- N.shiftl_land, (land_low _ 11 _ eq_refl) by lia.
Qed.

(* the decoder sees the field whatever stands in the five bits below it *)
Lemma dec_temp_field v lo : v < 2^11 -> lo < 2^5 -> dec_temp (N.shiftl v 5 + lo) = (Z.of_N v - 500)%Z.
Proof.
  intros Hv Hlo. unfold dec_temp.
  now rewrite (cat_high _ _ _ Hlo (N.ones 11)), (land_low _ 11 _ eq_refl Hv) by reflexivity.
Qed.

Lemma dec_temp_mask raw : dec_temp (N.land raw 0xFFE0) = dec_temp raw.
Proof. unfold dec_temp. now rewrite <- N.land_assoc. Qed.

Lemma temp_rt d : (-500 <= d < 1548)%Z ->
  exists v, v < 2^11 /\ enc_temp d = Some (N.shiftl v 5) /\ (Z.of_N v - 500)%Z = d.
Proof. intros H. exists (Z.to_N (d + 500)). rewrite (enc_temp_field d H). repeat split; lia. Qed.

(* 1539: up to 153.9 degC the half-word, spill flag included, stays below 0xFF00 (_TEMP_UNAVAILABLE), which the decoder
   reads as no temperature; 154.0 encodes to 0xFF00 itself.  dom_ac_status goes up to 1547 = 2047 - 500, the whole
   11-bit field: the x2D decoder knows no sentinel. *)
Definition dom_group_status (g : group_status) : bool :=
  (gs_group g <? 64) && (gs_damper g <? 128) &&
  match gs_setpoint g with Some v => gs_sensor g && (v <? 64) | None => negb (gs_sensor g) end &&
  match gs_temp g with Some d => gs_sensor g && (-500 <=? d)%Z && (d <=? 1539)%Z | None => true end.

Lemma group_status_roundtrip g : dom_group_status g = true ->
  exists p, enc_group_status1 g = Some p /\ length p = 6%nat /\ dec_group_status1 p = Some g.
Proof.
  destruct g as [n pw me spill turbo sensor ba temp damper sp]. unfold dom_group_status, enc_group_status1.
  cbn [gs_power gs_group gs_method gs_damper gs_setpoint gs_battery gs_turbo gs_temp gs_spill gs_sensor].
  rewrite !andb_true_iff, !N.ltb_lt. intros [[[Hn Hd] Hsp] Ht].
  destruct (cat_field 6 2 0xC0 0x3F (gpower_code pw) n eq_refl eq_refl (gpower_code_lt pw) Hn) as [L1 [N1 P1]].
  destruct (cat_field 7 1 0x80 0x7F (gmethod_code me) damper eq_refl eq_refl (gmethod_code_lt me) Hd) as [L2 [D2 M2]].
  (* byte 3: battery, turbo, set-point field s *)
  set (s := match sp with Some v => _ | None => _ end).
  assert (E3 : s < 2^6 /\ (if sensor then Some s else None) = sp).
  { subst s. destruct sp as [v|].
    - apply andb_prop in Hsp as [-> Hv%N.ltb_lt]. destruct (N.eqb_spec v 0) as [->|_]; [now split|].
      now rewrite (land_low v 6 63 eq_refl Hv).
    - apply negb_true_iff in Hsp as ->. now split. }
  destruct E3 as [Hs Ds]. clearbody s.
  destruct (flag_over turbo 6 s Hs) as [L3' [T3 [S3 _]]].
  destruct (flag_alone sensor 7) as [L4 S4]. destruct (flag_alone spill 4) as [Hlo Sp].
  (* bytes 5-6: temperature field v, spill flag below it *)
  set (t := match temp with Some d => _ | None => _ end).
  assert (E5 : exists v, t = Some (N.shiftl v 5) /\ v < 2^11 /\
                         (if negb sensor || (N.land (N.shiftl v 5 + b2n spill 4) 65280 =? 65280) then None
                          else Some (Z.of_N v - 500)%Z) = temp).
  { subst t. destruct temp as [d|].
    - rewrite !andb_true_iff, !Z.leb_le in Ht. destruct Ht as [[-> Ht2] Ht3].
      destruct (temp_rt d ltac:(lia)) as [v [Hv [E D]]]. exists v. split; [exact E|]. split; [exact Hv|]. cbn [negb orb].
      rewrite land_lt_ne, D; [reflexivity|]. rewrite N.shiftl_mul_pow2. lia.
    - exists 2040 (* 0xFF00 >> 5 *). split; [reflexivity|]. split; [reflexivity|]. destruct spill; now rewrite orb_true_r. }
  destruct E5 as [v [-> [Hv D5]]]. rewrite <- N.add_assoc. cbn [obind].
  rewrite (pack_B_ok _ L1), (pack_B_ok _ L2), (pack_B_ok _ (cat_lt _ _ 7 L3' 1 (battery_code_lt ba))),
          (pack_B_ok _ L4), (pack_H_ok _ (cat_lt _ _ 5 Hlo 11 Hv)). cbn [obind app].
  eexists. split; [reflexivity|]. split; [reflexivity|].
  unfold dec_group_status1. rewrite be16_div_mod, N1, P1, D2, M2, gpower_rt, gmethod_rt.
  rewrite (cat_high _ _ 7 L3' 1), (land_low _ 1 1 eq_refl (battery_code_lt ba)), battery_rt by reflexivity.
  rewrite (cat_low _ _ 7 L3'), S3, (land_low s 6 0x3F eq_refl Hs), (cat_bit_low _ _ 7 L3'), T3 by reflexivity.
  rewrite S4, (cat_bit_low _ _ 5 Hlo), Sp, dec_temp_mask, (dec_temp_field v _ Hv Hlo) by reflexivity.
  cbn [obind]. now rewrite D5, Ds.
Qed.

Definition dom_ac_status (a : ac_status) : bool :=
  (as_number a <? 64) && (as_setpoint a <? 64) && (-500 <=? as_temp a)%Z && (as_temp a <=? 1547)%Z && (as_error a <? 65536).

Lemma ac_status_roundtrip a : dom_ac_status a = true ->
  exists p, enc_ac_status1 a = Some p /\ length p = 8%nat /\ dec_ac_status1 p = Some a.
Proof.
  destruct a as [n pw mo fa spill ti sp temp er]. unfold dom_ac_status.
  cbn [as_number as_setpoint as_temp as_error]. rewrite !andb_true_iff, !N.ltb_lt, !Z.leb_le.
  intros [[[[Hn Hsp] Ht1] Ht2] He].
  destruct (cat_masked 6 2 0xC0 0x3F (apower_code pw) n eq_refl eq_refl) as [L1 [N1 P1]].
  destruct (cat_masked 4 4 0xF0 0x0F (amode_code mo) (afan_code fa) eq_refl eq_refl) as [L2 [F2 M2]].
  destruct (flag_over ti 6 sp Hsp) as [L3' [T3 [S3' _]]].
  destruct (flag_over spill 7 _ L3') as [L3 [S3 [M3 B3]]].
  destruct (temp_rt temp ltac:(lia)) as [v [Hv [Et Dt]]].
  unfold enc_ac_status1. cbn [as_number as_power as_mode as_fan as_spill as_timer as_setpoint as_temp as_error].
  (* the temperature half-word as field + 0: the cat lemmas with nothing in the five low bits *)
  rewrite Et, (land_low sp 6 0x3F eq_refl Hsp), <- N.add_assoc, <- (N.add_0_r (N.shiftl v 5)). cbn [obind].
  rewrite (pack_B_ok _ L1), (pack_B_ok _ L2), (pack_B_ok _ L3), (pack_H_ok _ (cat_lt v 0 5 eq_refl 11 Hv)), (pack_H_ok _ He).
  cbn [obind app]. eexists. split; [reflexivity|]. split; [reflexivity|].
  unfold dec_ac_status1. rewrite N1, P1, F2, M2, !N.mod_small, apower_rt, amode_rt, afan_rt
    by (assumption || apply apower_code_lt || apply amode_code_lt || apply afan_code_lt).
  cbn [obind]. rewrite S3, (B3 6), T3, M3, S3', (land_low sp 6 0x3F eq_refl Hsp) by reflexivity.
  rewrite !be16_div_mod, (dec_temp_field v 0 Hv eq_refl), Dt. reflexivity.
Qed.

Definition dom_timer_state (t : timer_state) : bool := (ts_hour t <? 32) && (ts_minute t <? 64).
Lemma timer_state_rt t : dom_timer_state t = true ->
  dec_timer_state (b2n (ts_disabled t) 7 + N.land (ts_hour t) 0x1F) (N.land (ts_minute t) 0x3F) = t.
Proof.
  destruct t as [d h m]. unfold dom_timer_state. cbn [ts_disabled ts_hour ts_minute]. rewrite andb_true_iff, !N.ltb_lt. intros [Hh Hm].
  rewrite (land_low h 5 0x1F eq_refl Hh), (land_low m 6 0x3F eq_refl Hm).
  destruct (flag_over d 7 h ltac:(lia)) as [_ [D [M _]]].
  unfold dec_timer_state. now rewrite D, M, (land_low h 5 0x1F eq_refl Hh), (land_low m 6 0x3F eq_refl Hm).
Qed.

Definition dom_timers4 (l : list timer_data) : bool :=
  match l with
  | [t0; t1; t2; t3] =>
    (td_number t0 =? 0) && (td_number t1 =? 1) && (td_number t2 =? 2) && (td_number t3 =? 3) &&
    forallb (fun t => dom_timer_state (td_on t) && dom_timer_state (td_off t)) l
  | _ => false
  end.

Lemma timers4_roundtrip l : dom_timers4 l = true ->
  exists p, enc_timers l = Some p /\ length p = 32%nat /\ dec_timers p = Some l.
Proof.
  destruct l as [|[n0 on0 off0] [|[n1 on1 off1] [|[n2 on2 off2] [|[n3 on3 off3] [|? ?]]]]]; try discriminate.
  unfold dom_timers4. cbn [td_number td_on td_off forallb]. rewrite !andb_true_iff, !N.eqb_eq.
  intros [[[[-> ->] ->] ->] [[A0 B0] [[A1 B1] [[A2 B2] [[A3 B3] _]]]]].
  eexists. split; [reflexivity|]. split; [reflexivity|].
  (* the layout of the buffer computes; the bytes stay as the encoder wrote them *)
  lazy -[dec_timer_state b2n N.land N.add ts_disabled ts_hour ts_minute]. now rewrite !timer_state_rt.
Qed.

Definition sep_free (sep : N) (s : list N) : bool := forallb (fun b => negb (b =? sep)) s.

Lemma split_aux_app sep x : forall cur l, sep_free sep x = true ->
  split_sep_aux sep cur (x ++ l) = split_sep_aux sep (rev x ++ cur) l.
Proof.
  induction x as [|b x IH]; intros cur l H; [reflexivity|].
  cbn in H. apply andb_prop in H as [Hb Hx]. apply negb_true_iff in Hb.
  cbn [app split_sep_aux]. rewrite Hb, (IH _ _ Hx). cbn [rev]. now rewrite <- app_assoc.
Qed.

Lemma split_join sep vs : vs <> [] -> forallb (sep_free sep) vs = true ->
  split_sep sep (join_sep sep vs) = vs.
Proof.
  unfold split_sep. induction vs as [|x vs IH]; intros Hne H; [contradiction|].
  cbn in H. apply andb_prop in H as [Hx Hvs]. destruct vs as [|y r].
  - cbn [join_sep]. rewrite <- (app_nil_r x) at 1. rewrite (split_aux_app sep x [] [] Hx).
    cbn [split_sep_aux]. now rewrite app_nil_r, rev_involutive.
  - cbn [join_sep]. rewrite (split_aux_app sep x [] _ Hx). cbn [split_sep_aux]. rewrite N.eqb_refl.
    rewrite app_nil_r, rev_involutive. f_equal. apply IH; [discriminate|exact Hvs].
Qed.

Fixpoint keys_distinct (l : list (N * list N)) : bool :=
  match l with
  | [] => true
  | (k, _) :: r => negb (existsb (fun e => fst e =? k) r) && keys_distinct r
  end.

Lemma dict_set_fresh d k v : existsb (fun e => fst e =? k) d = false -> dict_set d k v = d ++ [(k, v)].
Proof.
  induction d as [|[k' v'] d IH]; cbn; intros H; [reflexivity|].
  apply orb_false_iff in H as [Hk Hd]. rewrite N.eqb_sym, Hk. now rewrite (IH Hd).
Qed.

Lemma dict_of_distinct_aux l : forall acc,
  keys_distinct l = true -> (forall e, In e l -> existsb (fun a => fst a =? fst e) acc = false) ->
  fold_left (fun d e => dict_set d (fst e) (snd e)) l acc = acc ++ l.
Proof.
  induction l as [|[k v] l IH]; intros acc Hd Hacc; cbn [fold_left]; [now rewrite app_nil_r|].
  cbn in Hd. apply andb_prop in Hd as [Hk Hl]. apply negb_true_iff in Hk.
  cbn [fst snd]. rewrite (dict_set_fresh acc k v (Hacc (k, v) (or_introl eq_refl))).
  rewrite IH; [now rewrite <- app_assoc|exact Hl|].
  intros e He. rewrite existsb_app. cbn [existsb fst]. rewrite (Hacc e (or_intror He)). cbn [orb].
  rewrite orb_false_r. apply N.eqb_neq. intros Heq.
  assert (existsb (fun e0 => fst e0 =? k) l = true) as C; [|congruence].
  apply existsb_exists. exists e. split; [exact He|]. now apply N.eqb_eq.
Qed.

Lemma dict_of_distinct l : keys_distinct l = true -> dict_of l = l.
Proof. intros H. unfold dict_of. now rewrite (dict_of_distinct_aux l [] H (fun _ _ => eq_refl)). Qed.

Definition dom_str (maxlen : N) (s : list N) : bool := (N.of_nat (length s) <? maxlen) && utf8_valid s.

(* hours and minutes of less than a day are the quotient and remainder by 60 *)
Lemma qt_fields tm : tm < 1440 -> N.land ((tm / 60) mod 24) 0xFF * 60 + N.land (tm mod 60) 0xFF = tm.
Proof.
  intros H. assert (tm / 60 < 24) by (apply N.div_lt_upper_bound; [discriminate|exact H]).
  pose proof (N.mod_lt tm 60 ltac:(discriminate)).
  rewrite (N.mod_small (tm / 60)), !(land_low _ 8 0xFF eq_refl) by lia.
  rewrite N.mul_comm. symmetry. apply N.div_mod. discriminate.
Qed.

Definition dom_name4 (e : N * list N) : bool :=
  (fst e <? 256) && nul_free (snd e) && (N.of_nat (length (snd e)) <? 9) && utf8_valid (snd e).

Lemma name4_roundtrip e : dom_name4 e = true ->
  exists r, enc_name1 e = Some r /\ length r = 9%nat /\ dec_name1 r = Some e.
Proof.
  destruct e as [g name]. unfold dom_name4. cbn [fst snd]. rewrite !andb_true_iff, !N.ltb_lt. intros [[[Hg Hn] Hl] Hu].
  unfold enc_name1. cbn [fst snd]. rewrite (pack_B_ok g Hg). cbn [obind app].
  eexists. split; [reflexivity|]. split; [cbn [length]; now rewrite pad_to_length|].
  cbn [dec_name1]. rewrite (cstring_pad 8 name Hn ltac:(lia)), Hu. reflexivity.
Qed.

(* each step of bits_byte puts a flag above what is there: acc below bit off, the flags from off upward *)
Lemma bits_fold l : forall acc off, acc < 2^off ->
  let r := fst (fold_left (fun '(acc, off) b => (acc + b2n b off, off + 1)) l (acc, off)) in
  r < 2^(off + N.of_nat (length l)) /\ (forall i, i < off -> bit r i = bit acc i) /\
  map (fun i => bit r (off + N.of_nat i)) (seq 0 (length l)) = l.
Proof.
  induction l as [|b l IH]; intros acc off H; cbn zeta.
  - cbn. rewrite N.add_0_r. auto.
  - cbn [fold_left length seq map]. rewrite (N.add_comm acc).
    destruct (flag_over b off acc H) as [L [B [_ Lo]]].
    destruct (IH _ _ L) as [L' [Lo' M]]. cbn zeta in *. split; [|split].
    + now rewrite Nat2N.inj_succ, <- N.add_1_l, N.add_assoc.
    + intros i Hi. rewrite Lo' by lia. now apply Lo.
    + rewrite N.add_0_r, Lo', B by lia. f_equal. rewrite <- seq_shift, map_map. rewrite <- M at 2.
      apply map_ext. intros i. f_equal. lia.
Qed.

Lemma bits_byte_spec l n : length l = n -> (n <= 8)%nat ->
  bits_byte l < 256 /\ map (bit (bits_byte l)) (below n) = l.
Proof.
  intros <- Hn. destruct (bits_fold l 0 0 eq_refl) as [L [_ M]]. split.
  - eapply N.lt_le_trans; [exact L|]. change 256 with (2^8). apply N.pow_le_mono_r; lia.
  - unfold below. now rewrite map_map.
Qed.

Fixpoint leqb (a b : list N) : bool :=
  match a, b with
  | [], [] => true
  | x :: a', y :: b' => (x =? y) && leqb a' b'
  | _, _ => false
  end.
Lemma leqb_eq a : forall b, leqb a b = true -> a = b.
Proof.
  induction a as [|x a IH]; intros [|y b] H; try discriminate; [reflexivity|].
  cbn in H. apply andb_prop in H as [H1 H2]. apply N.eqb_eq in H1. subst. f_equal. now apply IH.
Qed.

(* the group set is the ascending list of the bits of a 16-bit map *)
Definition canon_groups (gs : list N) : bool :=
  (group_bitmap gs <? 65536) && leqb (groups_of_bitmap (group_bitmap gs)) gs.

Definition dom_ability4 (a : ability) : bool :=
  (ab_number a <? 256) && (ab_start a <? 256) && (ab_count a <? 256) && (ab_min a <? 256) && (ab_max a <? 256) &&
  Nat.eqb (length (ab_modes a)) 5 && Nat.eqb (length (ab_fans a)) 7 &&
  nul_free (ab_name a) && (N.of_nat (length (ab_name a)) <? 17) && utf8_valid (ab_name a) &&
  match ab_groups a with Some gs => canon_groups gs | None => true end.

Lemma ability4_roundtrip a : dom_ability4 a = true ->
  exists r, enc_ability1 a = Some r /\
            length r = (24 + match ab_groups a with Some _ => 2 | None => 0 end)%nat /\
            forall fuel rest, dec_abilities (S fuel) (r ++ rest) = (rs <- dec_abilities fuel rest ;; Some (a :: rs)).
Proof.
  destruct a as [num name modes fans mi ma groups st ct]. unfold dom_ability4.
  cbn [ab_number ab_name ab_modes ab_fans ab_min ab_max ab_groups ab_start ab_count].
  rewrite !andb_true_iff, !N.ltb_lt, !Nat.eqb_eq. intros [[[[[[[[[[Hnum Hst] Hct] Hmi] Hma] Hml] Hfl] Hnf] Hl] Hu] Hg].
  destruct (bits_byte_spec modes 5 Hml ltac:(lia)) as [Lm Dm]. destruct (bits_byte_spec fans 7 Hfl ltac:(lia)) as [Lf Df].
  cbn [below seq map N.of_nat Pos.of_succ_nat Pos.succ] in Dm, Df.
  unfold enc_ability1. cbn [ab_number ab_name ab_modes ab_fans ab_min ab_max ab_groups ab_start ab_count].
  rewrite (pack_B_ok _ Hnum), (pack_B_ok _ Hst), (pack_B_ok _ Hct), (pack_B_ok _ Lm), (pack_B_ok _ Lf),
          (pack_B_ok _ Hmi), (pack_B_ok _ Hma).
  pose proof (cstring_pad 16 name Hnf ltac:(lia)) as Cs. pose proof (pad_to_length 16 name) as Pl.
  remember (pad_to 16 name) as pn eqn:Epn. clear Epn.
  (* 17: the 16 name bytes, and once more to close the tail, so that nth / firstn / skipn compute *)
  do 17 (destruct pn as [|? pn]; try discriminate Pl). clear Pl.
  destruct groups as [gs|].
  - apply andb_prop in Hg as [Hv Hgs%leqb_eq]. rewrite (pack_B_ok 24 ltac:(reflexivity)), Hv. cbn [obind app].
    eexists. split; [reflexivity|]. split; [reflexivity|]. intros fuel rest.
    cbn [app dec_abilities length Nat.ltb Nat.leb firstn skipn nth N.eqb Pos.eqb].
    rewrite (N.add_comm (_ mod 256)), be16_div_mod, Hgs. cbn [obind]. rewrite Cs, Hu. cbn [negb].
    destruct (dec_abilities fuel rest); cbn [obind]; [|reflexivity]. rewrite Dm, Df. reflexivity.
  - rewrite (pack_B_ok 22 ltac:(reflexivity)). cbn [obind app].
    eexists. split; [reflexivity|]. split; [reflexivity|]. intros fuel rest.
    cbn [app dec_abilities length Nat.ltb Nat.leb firstn skipn nth N.eqb Pos.eqb obind].
    rewrite Cs, Hu. cbn [negb].
    destruct (dec_abilities fuel rest); cbn [obind]; [|reflexivity]. rewrite Dm, Df. reflexivity.
Qed.

(* acc is the running total of size4's fold *)
Lemma abilities4_roundtrip l : forallb dom_ability4 l = true -> forall acc,
  exists p, enc_list enc_ability1 l = Some p /\
            (acc + length p)%nat = fold_left (fun acc a => acc + 24 + match ab_groups a with Some _ => 2 | None => 0 end)%nat l acc /\
            (24 * length l <= length p)%nat /\
            forall fuel, (length l <= fuel)%nat -> dec_abilities fuel p = Some l.
Proof.
  induction l as [|a l IH]; intros H acc.
  - exists []. split; [reflexivity|]. split; [cbn; lia|]. split; [cbn; lia|]. intros fuel _. destruct fuel; reflexivity.
  - cbn in H. apply andb_prop in H as [Ha Hl].
    destruct (ability4_roundtrip a Ha) as [r [Er [Lr Dr]]].
    destruct (IH Hl (acc + 24 + match ab_groups a with Some _ => 2 | None => 0 end)%nat) as [p [Ep [Lp [Lmin Dp]]]].
    unfold enc_list in *. cbn [map sequence]. rewrite Er. cbn [obind].
    destruct (sequence (map enc_ability1 l)) as [rs|]; [|discriminate]. cbn [obind] in *. injection Ep as <-.
    exists (r ++ concat rs). split; [reflexivity|]. rewrite app_length, Lr. split; [cbn [fold_left]; rewrite <- Lp; lia|].
    split; [cbn [length]; lia|]. intros fuel Hf. destruct fuel as [|fuel]; [cbn in Hf; lia|].
    rewrite Dr, (Dp fuel ltac:(cbn in Hf; lia)). reflexivity.
Qed.

(* the lists and the error text are non-empty: an empty body is the request, an empty text the "no error" form *)
Definition dom_sub4 (s : sub4) : bool :=
  match s with
  | S_ErrMsg ac info =>
    (ac <? 256) && match info with Some e => negb (is_nil e) && dom_str 256 e | None => true end
  | S_ErrReq ac => ac <? 256
  | S_Ability l => negb (is_nil l) && forallb dom_ability4 l
  | S_AbilityReq All | S_NamesReq All => true
  | S_AbilityReq (Num n) | S_NamesReq (Num n) => n <? 256
  | S_Names l => negb (is_nil l) && forallb dom_name4 l && keys_distinct l
  | S_QuickTimer ac _ tm => (ac <? 256) && (tm <? 1440)
  | S_Version _ vs => negb (is_nil vs) && forallb (sep_free VERSION_SEP) vs && dom_str 256 (join_sep VERSION_SEP vs)
  | S_VersionReq => true
  | S_Unsupported _ _ => false
  end.

Theorem sub4_roundtrip s : dom_sub4 s = true ->
  exists id body, enc_sub s = Some (id, body) /\
                  size4 (M_Ext s) = Some (2 + length body)%nat /\
                  dec_sub id (length body) body = Some (s, []).
Proof.
  destruct s as [ac info|ac|l|a|l|a|ac t tm|up vs| |id raw]; cbn [dom_sub4]; intros H; try discriminate H.
  - (* error message *)
    apply andb_prop in H as [Hac%N.ltb_lt Hi]. unfold enc_sub. rewrite (land_low ac 8 0xFF eq_refl Hac).
    destruct info as [[|e0 e]|]; [discriminate Hi| |eexists; eexists; repeat split; reflexivity].
    (* under a name, so that [length es] does not compute *)
    remember (e0 :: e) as es eqn:Ees. assert (Hes : (0 < length es)%nat) by (subst es; cbn; lia).
    unfold dom_str in Hi. rewrite !andb_true_iff, N.ltb_lt in Hi. destruct Hi as [_ [Hl Hu]].
    rewrite (pack_B_ok _ Hl). cbn [obind app].
    eexists. eexists. split; [reflexivity|]. split; [subst es; reflexivity|].
    unfold dec_sub. cbn [N.eqb Pos.eqb length Nat.eqb]. rewrite Nat2N.id, firstn_all, skipn_all, Hu.
    destruct (N.eqb_spec (N.of_nat (length es)) 0); [lia|]. now subst es.
  - (* error request *)
    apply N.ltb_lt in H. unfold enc_sub. rewrite (land_low ac 8 0xFF eq_refl H). eexists. eexists. repeat split; reflexivity.
  - (* abilities *)
    apply andb_prop in H as [Hne Hl]. destruct (abilities4_roundtrip l Hl 0%nat) as [p [E [L [Lmin D]]]].
    assert (0 < length l)%nat by (destruct l; [discriminate Hne|cbn; lia]).
    unfold enc_sub. rewrite E. cbn [obind]. eexists. eexists. split; [reflexivity|].
    split; [cbn [size4]; now rewrite <- L|].
    unfold dec_sub. cbn [N.eqb Pos.eqb].
    (* at least 24 bytes: neither request form (length 0, length 1) *)
    destruct (length p) as [|[|n]] eqn:Lp; try lia. cbn [Nat.eqb]. rewrite <- Lp.
    now rewrite firstn_all, skipn_all, (D (S (length p))) by lia.
  - (* ability request *)
    destruct a as [|n]; [eexists; eexists; repeat split; reflexivity|].
    apply N.ltb_lt in H. unfold enc_sub. rewrite (pack_B_ok n H). cbn [obind]. eexists. eexists. repeat split; reflexivity.
  - (* names *)
    apply andb_prop in H as [H Hk].
    destruct (list_roundtrip enc_name1 dec_name1 dom_name4 9 l ltac:(lia) name4_roundtrip H) as [p [E [L [D [G0 [G1 Gm]]]]]].
    unfold enc_sub. rewrite E. cbn [obind]. eexists. eexists. split; [reflexivity|].
    split; [cbn [size4]; now rewrite L|].
    unfold dec_sub. cbn [N.eqb Pos.eqb]. rewrite G0, G1, Gm. cbn [negb]. rewrite firstn_all, skipn_all, D. cbn [obind].
    now rewrite (dict_of_distinct _ Hk), Nat.ltb_irrefl.
  - (* names request *)
    destruct a as [|n]; [eexists; eexists; repeat split; reflexivity|].
    apply N.ltb_lt in H. unfold enc_sub. rewrite (pack_B_ok n H). cbn [obind]. eexists. eexists. repeat split; reflexivity.
  - (* quick timer *)
    rewrite andb_true_iff, !N.ltb_lt in H. destruct H as [Hac Htm].
    unfold enc_sub. rewrite (pack_B_ok ac Hac). cbn [obind app].
    eexists. eexists. split; [reflexivity|]. split; [reflexivity|].
    unfold dec_sub. cbn [N.eqb Pos.eqb]. destruct t; cbn [timer_type_code N.land timer_type_of obind]; now rewrite (qt_fields tm Htm).
  - (* version *)
    unfold dom_str in H. rewrite !andb_true_iff, N.ltb_lt in H. destruct H as [[Hne Hf] [Hl Hu]].
    unfold enc_sub. rewrite (pack_B_ok _ Hl). cbn [obind].
    eexists. eexists. split; [reflexivity|]. split; [reflexivity|].
    unfold dec_sub. cbn [N.eqb Pos.eqb length Nat.eqb app]. rewrite Nat2N.id, firstn_all, skipn_all, Hu.
    rewrite split_join; [|destruct vs; [discriminate Hne|discriminate]|exact Hf].
    destruct up; reflexivity.
  - (* version request *)
    eexists. eexists. repeat split; reflexivity.
Qed.

Definition dom4 (m : msg4) : bool :=
  match m with
  | M_GroupCtrl c => dom_group_ctrl c
  | M_GroupStatus l => negb (is_nil l) && forallb dom_group_status l
  | M_AcCtrl c => dom_ac_ctrl c
  | M_AcStatus l => negb (is_nil l) && forallb dom_ac_status l
  | M_TimerCtrl l | M_TimerStatus l => dom_timers4 l
  | M_GroupStatusReq | M_AcStatusReq | M_TimerStatusReq => true
  | M_Ext s => dom_sub4 s
  | M_Unsupported _ _ => false
  end.

Theorem msg4_roundtrip m : dom4 m = true ->
  exists p, enc4 m = Some p /\ size4 m = Some (length p) /\ dec4 (type_of m) p = Some m.
Proof.
  destruct m as [c|l| |c|l| |l|l| |s|id raw]; unfold dec4; cbn [dom4 enc4 size4 type_of N.eqb Pos.eqb]; intros H; try discriminate H.
  - destruct (group_ctrl_roundtrip c H) as [p [E [L D]]]. exists p. now rewrite E, D, L.
  - destruct (list_roundtrip _ _ _ 6 l ltac:(lia) group_status_roundtrip H) as [p [E [L [D [G0 [_ Gm]]]]]].
    exists p. now rewrite E, G0, Gm, D, L.
  - now exists [].
  - destruct (ac_ctrl_roundtrip c H) as [p [E [L D]]]. exists p. now rewrite E, D, L.
  - destruct (list_roundtrip _ _ _ 8 l ltac:(lia) ac_status_roundtrip H) as [p [E [L [D [G0 [_ Gm]]]]]].
    exists p. now rewrite E, G0, Gm, D, L.
  - now exists [].
  - destruct (timers4_roundtrip l H) as [p [E [L D]]]. exists p. now rewrite E, D, L.
  - destruct (timers4_roundtrip l H) as [p [E [L D]]]. exists p. now rewrite E, D, L.
  - now exists [].
  - destruct (sub4_roundtrip s H) as [id [body [E [Sz D]]]]. rewrite E.
    eexists. split; [reflexivity|]. split; [exact Sz|]. cbn [fst snd app length]. now rewrite be16_div_mod, D.
Qed.
