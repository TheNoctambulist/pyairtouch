(* CrcProofs.v — the table-driven loop is CRC-16/MODBUS; the checksum as a shift register
   running over the message read as one number (GF(2)-linearity, injectivity), and the
   detection theorems. *)
From Coq Require Import NArith List Bool Lia Btauto.
From PV Require Import base.Res base.ListX crc.Crc.
Import ListNotations.
Open Scope N_scope.

(* bit_step is linear over GF(2) *)
Lemma bit_step_lxor a b : bit_step (N.lxor a b) = N.lxor (bit_step a) (bit_step b).
Proof.
  unfold bit_step. rewrite <- !N.bit0_odd, N.lxor_spec, N.shiftr_lxor.
  destruct (N.testbit a 0), (N.testbit b 0); cbn [xorb];
    apply N.bits_inj; intros k; rewrite ?N.lxor_spec; btauto.
Qed.

Lemma bit_step_0 : bit_step 0 = 0. Proof. reflexivity. Qed.
Lemma L8_0 : L8 0 = 0. Proof. reflexivity. Qed.

Lemma iter_lxor n a b :
  N.iter n bit_step (N.lxor a b) = N.lxor (N.iter n bit_step a) (N.iter n bit_step b).
Proof.
  induction n using N.peano_ind.
  - reflexivity.
  - rewrite !N.iter_succ, IHn. apply bit_step_lxor.
Qed.

Lemma iter_0 n : N.iter n bit_step 0 = 0.
Proof. induction n using N.peano_ind; [reflexivity|]. now rewrite N.iter_succ, IHn. Qed.

(* the register is not masked: what is shifted in above bit k comes out unchanged after k
   steps (an even register is only shifted) *)
Lemma iter_shiftl k y : N.iter k bit_step (N.shiftl y k) = y.
Proof.
  induction k using N.peano_ind; [apply N.shiftl_0_r|].
  rewrite N.iter_succ_r, <- N.add_1_r, <- N.shiftl_shiftl. unfold bit_step at 2.
  rewrite <- N.bit0_odd, N.shiftl_spec_low by reflexivity.
  rewrite N.shiftr_shiftl_l, N.shiftl_0_r by reflexivity. exact IHk.
Qed.

Definition fits (n a : N) : Prop := N.shiftr a n = 0.

(* trap: [apply (fits_lt 8), Hb] with Hb : b < 256 goes through only because 2 ^ 8 converts to 256 *)
Lemma fits_lt n a : fits n a <-> a < 2 ^ n.
Proof.
  unfold fits. rewrite N.shiftr_div_pow2. split; intros H.
  - apply N.div_small_iff in H; [exact H|]. apply N.pow_nonzero. discriminate.
  - apply N.div_small. exact H.
Qed.

Lemma fits_lxor n a b : fits n a -> fits n b -> fits n (N.lxor a b).
Proof. unfold fits. intros Ha Hb. now rewrite N.shiftr_lxor, Ha, Hb. Qed.

Lemma fits_shiftr n a k : fits n a -> fits n (N.shiftr a k).
Proof.
  unfold fits. intros H. rewrite N.shiftr_shiftr, N.add_comm, <- N.shiftr_shiftr, H. apply N.shiftr_0_l.
Qed.

Lemma fits_shiftl n a k : fits n a -> fits (k + n) (N.shiftl a k).
Proof.
  unfold fits. intros H. rewrite <- N.shiftr_shiftr, N.shiftr_shiftl_l, N.sub_diag, N.shiftl_0_r by reflexivity.
  exact H.
Qed.

Lemma fits_bit_step r : fits 16 r -> fits 16 (bit_step r).
Proof.
  intros H. unfold bit_step. destruct (N.odd r).
  - apply fits_lxor; [now apply fits_shiftr|reflexivity].
  - now apply fits_shiftr.
Qed.

Lemma fits_iter n r : fits 16 r -> fits 16 (N.iter n bit_step r).
Proof. apply N.iter_invariant. exact fits_bit_step. Qed.

Lemma fits_mono n m a : n <= m -> fits n a -> fits m a.
Proof.
  rewrite !fits_lt. intros Hnm H. eapply N.lt_le_trans; [exact H|]. apply N.pow_le_mono_r; [discriminate|exact Hnm].
Qed.

Lemma fits_cat k n a b : fits k a -> fits n b -> fits (k + n) (N.lxor a (N.shiftl b k)).
Proof.
  intros Ha Hb. apply fits_lxor; [apply (fits_mono k); [lia|exact Ha]|now apply fits_shiftl].
Qed.

(* a < 2^k and b * 2^k do not overlap *)
Lemma lxor_shiftl_eq0 k a b : fits k a -> N.lxor a (N.shiftl b k) = 0 -> a = 0 /\ b = 0.
Proof.
  intros Ha H. apply N.lxor_eq in H. subst a. unfold fits in Ha.
  rewrite N.shiftr_shiftl_l, N.sub_diag, N.shiftl_0_r in Ha by reflexivity. subst b.
  split; [apply N.shiftl_0_l|reflexivity].
Qed.

(* The register of a reflected CRC is the message read as one little-endian number,
   stepped 8 bits per byte.  bit_step works on unbounded N and masks nothing, so the bytes
   still to come can be xored in at once, above the 16 bits in use; iter_shiftl brings each
   down in time. *)
Fixpoint word_of (bs : list N) : N :=
  match bs with [] => 0 | b :: bs => N.lxor b (N.shiftl (word_of bs) 8) end.

Theorem crc_from_wide bs : forall r,
  crc_from r bs = N.iter (8 * N.of_nat (length bs)) bit_step (N.lxor r (word_of bs)).
Proof.
  induction bs as [|b bs IH]; intros r; [symmetry; apply N.lxor_0_r|].
  cbn [crc_from fold_left length word_of]. fold (crc_from (byte_step r b) bs). rewrite IH.
  replace (8 * N.of_nat (S (length bs))) with (8 * N.of_nat (length bs) + 8) by lia.
  rewrite N.iter_add, <- N.lxor_assoc, (iter_lxor 8), iter_shiftl. reflexivity.
Qed.

Lemma table_sweep :
  forallb (fun i => N.eqb (nth (N.to_nat i) table 0) (L8 i)) (below 256) = true.
Proof. vm_compute. reflexivity. Qed.

Lemma table_correct i : i < 256 -> nth (N.to_nat i) table 0 = L8 i.
Proof. intros H. apply N.eqb_eq. exact (below_forall _ 256 table_sweep i H). Qed.

(* r without its low byte, and its low byte: disjoint, together r *)
Lemma split_hi_lo r : r = N.lxor (N.shiftl (N.shiftr r 8) 8) (N.land r 255).
Proof.
  change 255 with (N.ones 8). rewrite <- N.ldiff_ones_r, N.lxor_lor.
  - symmetry. apply N.lor_ldiff_and.
  - now rewrite (N.land_comm r), N.land_assoc, N.land_ldiff.
Qed.

Lemma land_lxor_255 a b : N.land (N.lxor a b) 255 = N.lxor (N.land a 255) (N.land b 255).
Proof.
  apply N.bits_inj. intros k. rewrite !N.lxor_spec, !N.land_spec, !N.lxor_spec. btauto.
Qed.

Lemma fits_land_255 a : fits 8 (N.land a 255).
Proof.
  apply fits_lt. change 255 with (N.ones 8). rewrite N.land_ones. apply N.mod_lt. discriminate.
Qed.

Lemma tbl_step_is_byte_step r b : fits 8 b -> tbl_step r b = byte_step r b.
Proof.
  intros Hb. unfold tbl_step, byte_step. rewrite (N.lxor_comm b r). set (x := N.lxor r b).
  rewrite table_correct by apply (fits_lt 8), fits_land_255. unfold L8.
  rewrite (split_hi_lo x) at 2. rewrite iter_lxor, iter_shiftl.
  subst x. rewrite N.shiftr_lxor, Hb. now rewrite N.lxor_0_r.
Qed.

(* C06_crc_is_modbus reads the check bytes off this: from any register the table loop and
   the bitwise loop agree byte by byte (tbl_step_is_byte_step) *)
Theorem crc_tbl_is_ref bs : bytes_ok bs -> crc_tbl bs = crc_ref bs.
Proof.
  intros H. unfold crc_tbl, crc_ref, crc_from. generalize 0xFFFF.
  induction H as [|b bs Hb _ IH]; intros r; cbn; [reflexivity|].
  rewrite tbl_step_is_byte_step by apply (fits_lt 8), Hb. apply IH.
Qed.

Lemma fits_crc_from bs : forall r, fits 16 r -> bytes_ok bs -> fits 16 (crc_from r bs).
Proof.
  intros r Hr Hb. revert r Hr. induction Hb as [|b bs Hb _ IH]; intros r Hr; [exact Hr|].
  apply IH, fits_iter, fits_lxor; [exact Hr|]. apply (fits_mono 8); [discriminate|apply (fits_lt 8), Hb].
Qed.

Lemma fits_crc_ref m : bytes_ok m -> fits 16 (crc_ref m).
Proof. intros H. apply fits_crc_from; [reflexivity|exact H]. Qed.

Fixpoint xor_list (a b : list N) : list N :=
  match a, b with
  | x :: a', y :: b' => N.lxor x y :: xor_list a' b'
  | _, _ => []
  end.

Definition zeros (n : nat) : list N := repeat 0 n.

Lemma length_zeros n : length (zeros n) = n. Proof. apply repeat_length. Qed.

Lemma length_xor_list a : forall b, length a = length b -> length (xor_list a b) = length a.
Proof. induction a as [|x a IH]; intros [|y b] H; cbn in *; try lia. f_equal. apply IH. lia. Qed.

Lemma word_of_zeros n : word_of (zeros n) = 0.
Proof.
  induction n as [|n IH]; [reflexivity|].
  change (word_of (zeros (S n))) with (N.lxor 0 (N.shiftl (word_of (zeros n)) 8)). now rewrite IH.
Qed.

Lemma word_of_app a b : word_of (a ++ b) = N.lxor (word_of a) (N.shiftl (word_of b) (8 * N.of_nat (length a))).
Proof.
  induction a as [|x a IH]; [now rewrite N.shiftl_0_r|].
  cbn [app word_of length]. rewrite IH, N.shiftl_lxor, N.shiftl_shiftl, N.lxor_assoc. do 3 f_equal. lia.
Qed.

Lemma word_of_xor a : forall e, length a = length e -> word_of (xor_list a e) = N.lxor (word_of a) (word_of e).
Proof.
  induction a as [|x a IH]; intros [|y e] Hl; try discriminate; [reflexivity|].
  cbn [xor_list word_of]. rewrite IH, N.shiftl_lxor by (injection Hl; auto).
  apply N.bits_inj; intros k; rewrite ?N.lxor_spec; btauto.
Qed.

Lemma crc_affine m e : length m = length e ->
  crc_ref (xor_list m e) = N.lxor (crc_ref m) (crc_from 0 e).
Proof.
  intros Hl. unfold crc_ref. rewrite !crc_from_wide, word_of_xor, length_xor_list, <- Hl, <- iter_lxor by exact Hl.
  now rewrite N.lxor_0_l, N.lxor_assoc.
Qed.

(* bit_step is injective on 16-bit registers *)
Lemma bit_step_inj0 x : fits 16 x -> bit_step x = 0 -> x = 0.
Proof.
  unfold bit_step, fits. intros Hf H. destruct (N.odd x) eqn:Ho.
  - (* bit 15 of 0xA001 would be bit 16 of x *)
    apply N.lxor_eq in H. change 16 with (1 + 15) in Hf. rewrite <- N.shiftr_shiftr, H in Hf. discriminate Hf.
  - pose proof (N.div2_odd x) as Hx. rewrite N.div2_spec, H, Ho in Hx. exact Hx.
Qed.

Lemma iter_inj0 n x : fits 16 x -> N.iter n bit_step x = 0 -> x = 0.
Proof.
  induction n using N.peano_ind; intros Hf H; [exact H|].
  rewrite N.iter_succ in H. apply IHn; [exact Hf|].
  apply bit_step_inj0; [now apply fits_iter|exact H].
Qed.

Lemma iter_neq n x y : fits 16 x -> fits 16 y -> x <> y -> N.iter n bit_step x <> N.iter n bit_step y.
Proof.
  intros Hx Hy Hne H. apply Hne. apply N.lxor_eq.
  apply (iter_inj0 n); [now apply fits_lxor|]. rewrite iter_lxor, H. apply N.lxor_nilpotent.
Qed.

(* a CRC-16 sees every burst of at most 16 bits: the shifts move it down to the register
   unchanged, and the register never loses a non-zero value *)
Lemma burst_nonzero k t w : fits 16 w -> w <> 0 -> t <= k -> N.iter k bit_step (N.shiftl w t) <> 0.
Proof.
  intros Hf Hw Ht H. replace k with (k - t + t) in H by lia.
  rewrite N.iter_add, iter_shiftl in H. now apply iter_inj0 in H.
Qed.

Definition sweep_step (bad : N -> bool) (st : N * bool) : N * bool :=
  let r' := bit_step (fst st) in (r', snd st && negb (bad r')).

Definition orbit_avoids (n : N) (bad : N -> bool) (r : N) : bool :=
  snd (N.iter n (sweep_step bad) (r, true)).

Lemma sweep_fst n bad r b : fst (N.iter n (sweep_step bad) (r, b)) = N.iter n bit_step r.
Proof. apply (N.iter_swap_gen _ _ fst). reflexivity. Qed.

Lemma orbit_avoids_spec n bad r :
  orbit_avoids n bad r = true -> forall d, 0 < d <= n -> bad (N.iter d bit_step r) = false.
Proof.
  unfold orbit_avoids. induction n using N.peano_ind; intros H d Hd; [lia|].
  rewrite N.iter_succ in H. unfold sweep_step at 1 in H. cbn [snd] in H.
  apply andb_prop in H as [H1 H2]. rewrite sweep_fst in H2.
  destruct (N.eq_dec d (N.succ n)) as [->|Hne].
  - rewrite N.iter_succ. now apply negb_true_iff in H2.
  - apply IHn; [exact H1|lia].
Qed.

Definition A001 : N := 0xA001.

(* x^16 + x^15 + x^2 + 1 has period 32767: the orbit of 0xA001 under bit_step does not
   return to it within 32766 steps (x^d <> 1 for 0 < d < 32767); the sweep checks that,
   and the other bounds follow from it.  In [detectable] a bit of an n-byte message lies
   fewer than 8 n steps before A001 on the orbit (iter_pow2), a check bit 2^t, t < 16,
   t + 1 <= 16 steps, and 8 * 4095 <= 32766, 8 * 4093 + 16 <= 32766. *)
Lemma orbit_no_return : orbit_avoids 32766 (N.eqb A001) A001 = true.
Proof. vm_compute. reflexivity. Qed.

Definition is_pow2_16 (r : N) : bool :=
  existsb (N.eqb r) [1; 2; 4; 8; 16; 32; 64; 128; 256; 512; 1024; 2048; 4096; 8192; 16384; 32768].

Lemma A001_not_pow2 : is_pow2_16 A001 = false. Proof. reflexivity. Qed.

Lemma fits_A001 : fits 16 A001. Proof. reflexivity. Qed.

Lemma iter_A001_nonzero k : N.iter k bit_step A001 <> 0.
Proof. intros H. apply iter_inj0 in H; [discriminate|apply fits_A001]. Qed.

(* a single bit reaches bit 0 and becomes the polynomial *)
Lemma iter_pow2 k t : t < k -> N.iter k bit_step (2 ^ t) = N.iter (k - t - 1) bit_step A001.
Proof.
  intros H. replace (N.iter k bit_step) with (N.iter (k - t - 1 + 1 + t) bit_step) by (f_equal; lia).
  now rewrite <- (N.shiftl_1_l t), !N.iter_add, iter_shiftl.
Qed.

Lemma orbit_inj k1 k2 : k1 <= 32766 -> k2 <= 32766 ->
  N.iter k1 bit_step A001 = N.iter k2 bit_step A001 -> k1 = k2.
Proof.
  assert (W : forall a d, 0 < d <= 32766 -> N.iter a bit_step A001 <> N.iter (a + d) bit_step A001).
  { intros a d Hd. rewrite N.iter_add.
    apply iter_neq; [apply fits_A001|apply fits_iter, fits_A001|].
    apply N.eqb_neq, (orbit_avoids_spec _ _ _ orbit_no_return d Hd). }
  intros H1 H2 E. destruct (N.lt_trichotomy k1 k2) as [L|[L|L]]; [exfalso|exact L|exfalso].
  - apply (W k1 (k2 - k1)); [lia|]. now replace (k1 + (k2 - k1)) with k2 by lia.
  - apply (W k2 (k1 - k2)); [lia|]. now replace (k2 + (k1 - k2)) with k1 by lia.
Qed.

Definition bit_at (n i : nat) (j : N) : list N := zeros i ++ [2 ^ j] ++ zeros (n - 1 - i).

Lemma word_of_window p w q : word_of (zeros p ++ w ++ zeros q) = N.shiftl (word_of w) (8 * N.of_nat p).
Proof. now rewrite !word_of_app, !word_of_zeros, length_zeros, N.shiftl_0_l, N.lxor_0_r, N.lxor_0_l. Qed.

Lemma word_of_bit_at n i j : word_of (bit_at n i j) = 2 ^ (8 * N.of_nat i + j).
Proof.
  unfold bit_at. rewrite word_of_window. cbn [word_of].
  rewrite N.shiftl_0_l, N.lxor_0_r, N.shiftl_mul_pow2, <- N.pow_add_r. f_equal. lia.
Qed.

Lemma bytes_ok_zeros n : bytes_ok (zeros n).
Proof. apply Forall_forall. intros x Hx. apply repeat_spec in Hx. subst. reflexivity. Qed.

Lemma bytes_ok_app a b : bytes_ok a -> bytes_ok b -> bytes_ok (a ++ b).
Proof. intros Ha Hb. apply Forall_app. split; assumption. Qed.

Lemma bytes_ok_xor a : forall e, bytes_ok a -> bytes_ok e -> bytes_ok (xor_list a e).
Proof.
  induction a as [|x a IH]; intros e Ha He; destruct e as [|y e]; cbn; try constructor.
  - inversion Ha; inversion He; subst. change 256 with (2 ^ 8) in *. apply fits_lt, fits_lxor; now apply fits_lt.
  - inversion Ha; inversion He; subst. now apply IH.
Qed.

Lemma window_wf p w q : bytes_ok w ->
  bytes_ok (zeros p ++ w ++ zeros q) /\ length (zeros p ++ w ++ zeros q) = (p + length w + q)%nat.
Proof.
  intros H. split; [repeat apply bytes_ok_app; auto using bytes_ok_zeros|].
  rewrite !app_length, !length_zeros. lia.
Qed.

Lemma bit_at_wf n i j : (i < n)%nat -> j < 8 -> bytes_ok (bit_at n i j) /\ length (bit_at n i j) = n.
Proof.
  intros Hi Hj. replace n with (i + 1 + (n - 1 - i))%nat at 3 by lia. apply window_wf.
  constructor; [|constructor]. apply (N.pow_lt_mono_r 2 j 8); [reflexivity|exact Hj].
Qed.

Lemma lxor_cancel_l a b c : N.lxor a b = N.lxor a c -> b = c.
Proof.
  intros H. apply (f_equal (N.lxor a)) in H. now rewrite <- !N.lxor_assoc, N.lxor_nilpotent, !N.lxor_0_l in H.
Qed.

(* If the receiver accepts message m xor em with check bytes (h xor eh, l xor el), where
   (h, l) were the correct check bytes of m, then the linear CRC of the error equals the
   error of the check value. *)
Lemma validate_corrupt m em eh el :
  bytes_ok m -> bytes_ok em -> length m = length em ->
  validate (xor_list m em)
           [N.lxor (N.shiftr (crc_tbl m) 8) eh; N.lxor (N.land (crc_tbl m) 255) el] = true ->
  crc_from 0 em = N.lxor (N.shiftl eh 8) el.
Proof.
  intros Hm He Hl H. unfold validate, check_bytes in H.
  rewrite (crc_tbl_is_ref _ (bytes_ok_xor _ _ Hm He)), (crc_tbl_is_ref _ Hm), (crc_affine _ _ Hl) in H.
  set (c := crc_ref m) in *. set (L := crc_from 0 em) in *.
  apply andb_prop in H as [H1 H2]. apply N.eqb_eq in H1, H2.
  rewrite N.shiftr_lxor in H1. apply lxor_cancel_l in H1.
  rewrite land_lxor_255 in H2. apply lxor_cancel_l in H2.
  rewrite (split_hi_lo L). now rewrite <- H1, <- H2.
Qed.

(* em: error of the covered bytes (n of them); (eh, el): error of the two check bytes *)
Inductive detectable (n : nat) : list N -> N -> N -> Prop :=
| DetCheckOnly eh el :
    eh < 256 -> el < 256 -> (eh <> 0 \/ el <> 0) -> detectable n (zeros n) eh el
| DetWindow1 p q e0 :
    (p + 1 + q = n)%nat -> 0 < e0 < 256 -> detectable n (zeros p ++ [e0] ++ zeros q) 0 0
| DetWindow2 p q e0 e1 :
    (p + 2 + q = n)%nat -> e0 < 256 -> e1 < 256 -> (e0 <> 0 \/ e1 <> 0) ->
    detectable n (zeros p ++ [e0; e1] ++ zeros q) 0 0
| DetBurst3 p q s a e1 c :
    (p + 3 + q = n)%nat -> 1 <= s <= 7 -> a < 2 ^ (8 - s) -> e1 < 256 -> c < 2 ^ s ->
    (a <> 0 \/ e1 <> 0 \/ c <> 0) ->
    detectable n (zeros p ++ [a * 2 ^ s; e1; c] ++ zeros q) 0 0
| DetTwoBits i1 j1 i2 j2 :
    (i1 < n)%nat -> (i2 < n)%nat -> j1 < 8 -> j2 < 8 -> (i1 <> i2 \/ j1 <> j2) ->
    N.of_nat n <= 4095 ->
    detectable n (xor_list (bit_at n i1 j1) (bit_at n i2 j2)) 0 0
| DetBitAndCheckBit i j t :
    (i < n)%nat -> j < 8 -> t < 16 -> N.of_nat n <= 4093 ->
    detectable n (bit_at n i j) (N.shiftr (2 ^ t) 8) (N.land (2 ^ t) 255).

Lemma detectable_wf n em eh el : detectable n em eh el -> bytes_ok em /\ length em = n.
Proof.
  intros H. destruct H; try subst n.
  - split; [apply bytes_ok_zeros|apply length_zeros].
  - apply (window_wf p [e0] q). repeat constructor. lia.
  - apply (window_wf p [e0; e1] q). repeat constructor; assumption.
  - apply (window_wf p [a * 2 ^ s; e1; c] q). repeat constructor; try assumption.
    + rewrite <- N.shiftl_mul_pow2. apply (fits_lt 8). replace 8 with (s + (8 - s)) by lia.
      now apply fits_shiftl, fits_lt.
    + apply (fits_lt 8), (fits_mono s); [lia|now apply fits_lt].
  - destruct (bit_at_wf n i1 j1) as [B1 L1], (bit_at_wf n i2 j2) as [B2 L2]; try assumption.
    split; [now apply bytes_ok_xor|]. rewrite length_xor_list; congruence.
  - now apply bit_at_wf.
Qed.

(* C06_detect.  Acceptance would make the CRC of the message error equal the error of the
   check value (validate_corrupt); class by class that equation fails: a burst never
   becomes 0 (burst_nonzero), single bits by their places on the orbit of A001 *)
Theorem detect n em eh el : detectable n em eh el ->
  forall m, bytes_ok m -> length m = n ->
  validate (xor_list m em)
           [N.lxor (N.shiftr (crc_tbl m) 8) eh; N.lxor (N.land (crc_tbl m) 255) el] = false.
Proof.
  intros Hd m Hm Hn. destruct (detectable_wf _ _ _ _ Hd) as [Hem Hlen].
  apply not_true_is_false. intros Hv.
  apply validate_corrupt in Hv; [|assumption|assumption|congruence].
  rewrite crc_from_wide, N.lxor_0_l, Hlen in Hv. clear - Hd Hv. destruct Hd.
  - rewrite word_of_zeros, iter_0, N.lxor_comm in Hv. symmetry in Hv.
    apply lxor_shiftl_eq0 in Hv; [intuition|now apply (fits_lt 8)].
  - rewrite word_of_window in Hv. cbn [word_of] in Hv. rewrite N.shiftl_0_l, N.lxor_0_r in Hv.
    revert Hv. apply burst_nonzero; [|lia|lia].
    apply (fits_mono 8); [discriminate|apply (fits_lt 8); lia].
  - rewrite word_of_window in Hv. cbn [word_of] in Hv. rewrite N.shiftl_0_l, N.lxor_0_r in Hv.
    revert Hv. apply burst_nonzero; [| |lia].
    + apply (fits_cat 8 8); now apply (fits_lt 8).
    + intros E. apply lxor_shiftl_eq0 in E; [intuition|now apply (fits_lt 8)].
  - (* the burst starts at bit s of its first byte *)
    assert (E : word_of [a * 2 ^ s; e1; c] =
                N.shiftl (N.lxor a (N.shiftl (N.lxor e1 (N.shiftl c 8)) (8 - s))) s).
    { cbn [word_of]. rewrite N.shiftl_0_l, N.lxor_0_r, (N.shiftl_lxor a), (N.shiftl_shiftl _ (8 - s)), (N.shiftl_mul_pow2 a).
      do 2 f_equal. lia. }
    rewrite word_of_window, E, N.shiftl_shiftl in Hv. revert Hv. apply burst_nonzero; [| |lia].
    + replace 16 with (8 - s + (8 + s)) by lia.
      repeat apply fits_cat; apply fits_lt; assumption.
    + intros E0. apply lxor_shiftl_eq0 in E0 as [-> E0]; [|now apply fits_lt].
      apply lxor_shiftl_eq0 in E0 as [-> ->]; [intuition|now apply (fits_lt 8)].
  - destruct (bit_at_wf n i1 j1) as [_ L1], (bit_at_wf n i2 j2) as [_ L2]; try assumption.
    rewrite word_of_xor, !word_of_bit_at, iter_lxor, !iter_pow2 in Hv by (congruence || lia).
    apply N.lxor_eq, orbit_inj in Hv; lia.
  - (* split_hi_lo right to left: the two check-byte errors are the halves of 2 ^ t;
       t + 1 steps on, that bit has become A001 like the message bit: two bits again *)
    rewrite <- split_hi_lo, word_of_bit_at in Hv. apply (f_equal (N.iter (t + 1) bit_step)) in Hv.
    rewrite <- N.iter_add, !iter_pow2 in Hv by lia. apply orbit_inj in Hv; lia.
Qed.
