(* HeartbeatProofs.v — period, detection and quietness of the heartbeat model. *)
From Coq Require Import ZArith List Lia.
From PV Require Import hb.Heartbeat.
Import ListNotations.
Open Scope Z_scope.

Section Proofs.
  Variables interval timeout : Z.
  (* only start_inv, step_inv and start_after_send use these two; detects keeps Hi because C08_detects states it *)
  Hypothesis Hi : 0 < interval.
  Hypothesis Ht : 0 < timeout.
  Notation hstep := (hstep interval timeout).
  Notation hrun := (hrun interval timeout).

  Lemma hrun_cons s o ops : hrun s (o :: ops) =
    (fst (hrun (fst (hstep s o)) ops), snd (hstep s o) ++ snd (hrun (fst (hstep s o)) ops)).
  Proof. cbn. destruct (hstep s o), (hrun _ ops). reflexivity. Qed.

  Lemma hrun_app a : forall s b, hrun s (a ++ b) =
    (fst (hrun (fst (hrun s a)) b), snd (hrun s a) ++ snd (hrun (fst (hrun s a)) b)).
  Proof.
    induction a as [|o a IH]; intros s b; cbn [app].
    - cbn. now destruct (hrun s b).
    - rewrite !hrun_cons, IH. cbn [fst snd]. now rewrite app_assoc.
  Qed.

  (* what a running manager does when time passes: the heartbeat sleep ends, or the
     response deadline passes, or neither timer is reached *)
  Variant adv_spec (s : hstate) (dt : Z) (c : bool) : hstate * list hev -> Prop :=
  | AdvSend : h_next s <= h_dead s -> h_next s <= h_now s + dt ->
      adv_spec s dt c (mkH true (h_next s + interval) (h_dead s) (h_next s),
                       (if c then [HSend (h_next s)] else []) ++ [HTime (h_next s)])
  | AdvDeadline : h_dead s < h_next s -> h_dead s <= h_now s + dt ->
      adv_spec s dt c (mkH true (h_next s) (h_dead s + timeout) (h_dead s),
                       (if c then [HReset (h_dead s)] else []) ++ [HTime (h_dead s)])
  | AdvIdle : h_now s + dt < h_next s -> h_now s + dt < h_dead s ->
      adv_spec s dt c (mkH true (h_next s) (h_dead s) (h_now s + dt), [HTime (h_now s + dt)]).

  Lemma hstep_adv s dt c : h_run s = true -> adv_spec s dt c (hstep s (HAdv dt c)).
  Proof.
    intros Hr. cbn. rewrite Hr. cbn [negb].
    destruct (Z.leb_spec (h_next s) (h_dead s)), (Z.leb_spec (h_next s) (h_now s + dt)),
      (Z.ltb_spec (h_dead s) (h_next s)), (Z.leb_spec (h_dead s) (h_now s + dt));
      cbn [andb]; constructor; lia.
  Qed.

  (* the constructors of adv_spec as rewriting equations *)
  Lemma adv_send s dt c : h_run s = true -> h_next s <= h_dead s -> h_next s <= h_now s + dt ->
    hstep s (HAdv dt c) =
    (mkH true (h_next s + interval) (h_dead s) (h_next s),
     (if c then [HSend (h_next s)] else []) ++ [HTime (h_next s)]).
  Proof. intros Hr A B. destruct (hstep_adv s dt c Hr); (reflexivity || lia). Qed.

  Lemma adv_deadline s dt c : h_run s = true -> h_dead s < h_next s -> h_dead s <= h_now s + dt ->
    hstep s (HAdv dt c) =
    (mkH true (h_next s) (h_dead s + timeout) (h_dead s),
     (if c then [HReset (h_dead s)] else []) ++ [HTime (h_dead s)]).
  Proof. intros Hr A B. destruct (hstep_adv s dt c Hr); (reflexivity || lia). Qed.

  Lemma adv_idle s dt c : h_run s = true -> h_now s + dt < h_next s -> h_now s + dt < h_dead s ->
    hstep s (HAdv dt c) = (mkH true (h_next s) (h_dead s) (h_now s + dt), [HTime (h_now s + dt)]).
  Proof. intros Hr A B. destruct (hstep_adv s dt c Hr); (reflexivity || lia). Qed.

  (* t0: the instant of start() *)
  Record HInv (t0 : Z) (s : hstate) : Prop := {
    hi_period : exists k, 1 <= k /\ h_next s = t0 + k * interval;
    hi_next : h_now s <= h_next s;
    hi_dead : h_now s <= h_dead s <= h_now s + timeout;
    hi_t0 : t0 <= h_now s }.

  Lemma start_inv s c : h_run s = false ->
    HInv (h_now s) (fst (hstep s (HStart c))).
  Proof.
    intros Hr. cbn. rewrite Hr. cbn. constructor; cbn; try lia. exists 1. lia.
  Qed.

  Definition valid_hop (o : hop) : bool := match o with HAdv dt _ => 0 <=? dt | _ => true end.

  Lemma step_inv t0 s o : HInv t0 s -> h_run s = true -> valid_hop o = true ->
    HInv t0 (fst (hstep s o)).
  Proof.
    intros [(k & Hk1 & Hk) Hn Hd H0] Hr Hv. destruct o as [c| | |dt c].
    1-3: cbn; rewrite ?Hr; split; cbn; try lia; exists k; lia.
    apply Z.leb_le in Hv.
    destruct (hstep_adv s dt c Hr); split; cbn; try lia; [exists (k + 1)|exists k|exists k]; lia.
  Qed.

  (* a heartbeat is handed to the socket only at an instant t0 + k * interval *)
  Lemma step_sends t0 s o t : HInv t0 s -> h_run s = true ->
    In (HSend t) (snd (hstep s o)) -> exists k, 0 <= k /\ t = t0 + k * interval.
  Proof.
    intros [(k & Hk1 & Hk) _ _ _] Hr Hin. exists k. split; [lia|]. rewrite <- Hk. revert Hin.
    destruct o as [c| | |dt c]; [cbn; rewrite ?Hr; cbn; tauto..|].
    destruct (hstep_adv s dt c Hr), c; cbn; intuition congruence.
  Qed.

  Lemma start_arms s c : h_run s = false ->
    h_dead (fst (hstep s (HStart c))) = h_now s + timeout /\
    snd (hstep s (HStart c)) = (if c then [HSend (h_now s)] else []).
  Proof. intros Hr. cbn. rewrite Hr. cbn. auto. Qed.

  Lemma resp_arms s : h_run s = true ->
    h_dead (fst (hstep s HResp)) = h_now s + timeout /\ snd (hstep s HResp) = [].
  Proof. intros Hr. cbn. rewrite Hr. cbn. auto. Qed.

  Definition silent_connected (o : hop) : bool :=
    match o with HAdv dt c => (0 <=? dt) && c | _ => false end.

  (* No response, no stop, connected whenever a timer fires: time cannot pass the
     deadline D without the reset being emitted at exactly D.  A step either emits it or
     leaves D where it is and the clock not beyond it; where the next heartbeat stands
     plays no part. *)
  Lemma reset_at_deadline ops : forall s, h_run s = true -> h_now s <= h_dead s ->
    forallb silent_connected ops = true ->
    h_dead s < h_now (fst (hrun s ops)) ->
    In (HReset (h_dead s)) (snd (hrun s ops)).
  Proof.
    induction ops as [|o ops IH]; intros s Hr Hd Hall; [cbn; lia|].
    cbn in Hall. apply andb_prop in Hall as [Ho Hall].
    destruct o as [| | |dt c]; try discriminate. apply andb_prop in Ho as [_ ->].
    rewrite hrun_cons. cbn [fst snd]. rewrite in_app_iff.
    destruct (hstep_adv s dt true Hr); cbn [fst snd].
    2: left; now left.
    all: intros Hp; right; refine (IH (mkH _ _ _ _) eq_refl _ Hall Hp); cbn; lia.
  Qed.

  Theorem detects s ops :
    h_run s = true -> h_now s <= h_dead s -> h_now s <= h_next s ->
    forallb silent_connected ops = true ->
    h_dead s < h_now (fst (hrun s ops)) ->
    In (HReset (h_dead s)) (snd (hrun s ops)).
  Proof using Hi. intros Hr Hd _. now apply reset_at_deadline. Qed.

  (* one round starting right after a heartbeat sent at instant h_now s: the console
     answers after d, then the client sleeps out the rest of the interval *)
  Definition round (d : Z) : list hop := [HAdv d true; HResp; HAdv (interval - d) true].

  Definition no_reset (tr : list hev) : Prop := forall t, ~ In (HReset t) tr.

  (* state right after a heartbeat at instant now: next = now + interval and the deadline
     leaves room for an answer arriving up to (timeout - interval) later *)
  Definition after_send (s : hstate) : Prop :=
    h_run s = true /\ h_next s = h_now s + interval /\ h_now s + (timeout - interval) <= h_dead s.

  Lemma round_run s d : after_send s -> 0 <= d -> d < timeout - interval -> d < interval ->
    hrun s (round d) =
    (mkH true (h_next s + interval) (h_now s + d + timeout) (h_next s),
     [HTime (h_now s + d); HSend (h_next s); HTime (h_next s)]).
  Proof.
    intros (Hr & Hn & Hd) D0 D1 D2. unfold round. rewrite !hrun_cons.
    rewrite (adv_idle s d true Hr) by lia. cbn [fst snd].
    rewrite adv_send; cbn; (reflexivity || lia).
  Qed.

  Theorem quiet ds : forall s, after_send s ->
    Forall (fun d => 0 <= d /\ d < timeout - interval /\ d < interval) ds ->
    no_reset (snd (hrun s (concat (map round ds)))).
  Proof.
    induction ds as [|d ds IH]; intros s Ha Hf t; cbn [map concat].
    - intros [].
    - inversion Hf as [|? ? (D0 & D1 & D2) Hf']; subst.
      rewrite hrun_app, (round_run s d Ha D0 D1 D2). cbn [fst snd]. rewrite in_app_iff.
      intros [H|H]; [cbn in H; intuition discriminate|]. revert H. apply IH; trivial.
      destruct Ha as (Hr & Hn & Hd). repeat split; cbn; lia.
  Qed.

  Lemma start_after_send s : h_run s = false -> after_send (fst (hstep s (HStart true))).
  Proof. intros Hr. cbn. rewrite Hr. cbn. unfold after_send; cbn. repeat split; lia. Qed.
End Proofs.
